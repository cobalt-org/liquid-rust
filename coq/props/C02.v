(* C02 — Rendering is total: any template on any data yields output or an error.
   Statements only; proofs in proofs/SafeProofs.v (no panic site but 900/303/304), ValidProofs.v
   (everything written is valid UTF-8, hence not 303/304) and ValidFilters.v (filters keep text valid).

   Termination: [render_top] is a Gallina function — structural recursion on the template, on the
   item lists of loops and on the partial nesting depth — so for every template, data object,
   partial store and depth it returns an outcome: Done, a failure, or one of the explicit panic
   sites of the model (every `panic!`/`expect`/`unwrap`/arithmetic trap of the modelled Rust code
   is such a site).  The theorems below show which sites can be reached.

   PROVED (render_never_panics): for every well-formed template (a cycle tag has a value, as the
   parser guarantees) whose text, names and literals are valid characters, every data object of
   valid strings, every partial store of such templates, every nesting depth and every sink, the
   only panic site that can be reached is
     900  slice::sort_by on a comparator that is not a total preorder (the recorded known finding
          sort-incomparable; by C14.sort_by_unspecified_iff it is reached exactly on such inputs).
   In particular the two `String::from_utf8(..).expect` sites of capture / ifchanged (303, 304)
   are unreachable, because everything a render writes is the UTF-8 encoding of valid characters
   (render_output_is_utf8: what an unbounded sink received decodes, to valid text) — an invariant
   of the whole evaluation: of lookups, of every math / html / url / string / array filter and of
   the date filter, whose formatter writes ASCII or pieces of its format (ValidFilters.apply_filter_vv, ValidDate.strftime_sv), of loops, captures and partials.  "Valid character" is what a
   Rust `String` can hold, so these hypotheses are the type invariant of the inputs; the oracle
   tables (float printing, case mapping, grapheme segmentation) are assumed to return valid text
   (they are Rust strings observed from the implementation).
   render_never_panics_weaker is the same without any validity hypothesis, with 303/304 allowed.
   The `date` filter is inside the theorem: its formatter is the strftime interpreter of C17, its conversion of a
   text to a date-time is an oracle table (`dparse`; "now" / "today" read the clock and are not generated).
   Also inside: jekyll's push / pop / shift / unshift / array_to_sentence_string and shopify's pluralize (Filters_extra).
   Outside the theorem: jekyll's sort and slugify and extra's date_in_tz, which are explored on the implementation only; Rust-level panics below the
   model (allocation, stack depth). *)
From LV Require Import Base Value Stack Utf8 Filters_math Filters_html Filters_seq Eval StackProofs SafeProofs ValidProofs ValidFilters.

Theorem render_never_panics : forall O, oracle_valid O -> forall ps,
  (forall name, match ps name with Ok b => twf b /\ tvalid b | Panic _ => False | _ => True end) ->
  forall depth t data k, twf t -> tvalid t -> ov data = true ->
  match render_top O ps depth t data k with
  | (OPanicked n, _, _) => n = site_sort_unspecified
  | _ => True
  end.
Proof. exact (fun O HO => ValidProofs.render_top_panic_free O HO (ValidFilters.apply_filter_vv O HO)). Qed.
(* whatever a render emits is valid UTF-8 *)
Theorem render_output_is_utf8 : forall O, oracle_valid O -> forall ps,
  (forall name, match ps name with Ok b => twf b /\ tvalid b | Panic _ => False | _ => True end) ->
  forall depth t data, twf t -> tvalid t -> ov data = true ->
  match render_top O ps depth t data sink0 with
  | (_, _, k') => exists text, forallb valid_char text = true /\ acc k' = encode text /\ decode (acc k') = Some text
  end.
Proof. exact (fun O HO => ValidProofs.output_is_utf8 O HO (ValidFilters.apply_filter_vv O HO)). Qed.
Theorem render_never_panics_weaker : forall O ps depth t data k,
  (forall name, match ps name with Ok b => twf b | Panic _ => False | _ => True end) -> twf t ->
  match render_top O ps depth t data k with
  | (OPanicked n, _, _) => n = site_sort_unspecified \/ n = 303%N \/ n = 304%N
  | _ => True
  end.
Proof. exact SafeProofs.render_top_no_panic. Qed.
(* every modelled filter returns valid text when given valid text *)
Theorem filters_keep_text_valid : forall O, oracle_valid O -> forall f v args r,
  vv v = true -> forallb vv args = true -> apply_filter O f v args = Ok r -> vv r = true.
Proof. exact ValidFilters.apply_filter_vv. Qed.
(* every construct keeps the invariant: a runtime with a global and a counter layer, and no panic *)
Theorem every_node_safe : forall O ps rec,
  (forall name, match ps name with Ok b => twf b | Panic _ => False | _ => True end) ->
  (forall l, twf l -> SF (rec l)) -> forall n, nwf n -> SF (rnode O ps rec n).
Proof. exact SafeProofs.SF_rnode. Qed.
(* a finite table of partial sources (valid, broken or absent) is such a store *)
Theorem table_store_ok : forall l, Forall (fun p => match snd p with Some b => twf b | None => True end) l ->
  forall name, match table_store l name with Ok b => twf b | Panic _ => False | _ => True end.
Proof. exact SafeProofs.table_store_ok. Qed.

(* filters: for every input and every argument list, of any type *)
Theorem math_filters_never_panic : forall O f v args, not_panic (math_filter O f v args) = true.
Proof. exact SafeProofs.math_filter_np. Qed.
Theorem html_filters_never_panic : forall O f v, not_panic (html_filter O f v) = true.
Proof. exact SafeProofs.html_filter_np. Qed.
Theorem string_array_filters_only_sort_site : forall O f v args,
  match seq_filter O f v args with Panic n => n = site_sort_unspecified | _ => True end.
Proof. exact SafeProofs.seq_filter_safe. Qed.
(* expressions and variable paths never panic (missing steps are errors) *)
Theorem expressions_never_panic : forall O e s, not_panic (eval_expr O e s) = true.
Proof. exact SafeProofs.eval_expr_np. Qed.
Theorem conditions_safe : forall O c s, match eval_cond O c s with Panic n => n = site_sort_unspecified | _ => True end.
Proof. exact SafeProofs.eval_cond_safe. Qed.
(* assignments and counters always find their layer *)
Theorem set_global_total : forall x v r, has_global r = true -> exists r', set_global x v r = Ok r'.
Proof. exact SafeProofs.set_global_safe. Qed.
Theorem set_index_total : forall x v r, has_index r = true -> exists r', set_index x v r = Ok r'.
Proof. exact SafeProofs.set_index_safe. Qed.
Theorem cycle_needs_a_value : forall name max g, max <> 0 -> match cycle_step name max g with Panic n => n = site_sort_unspecified | _ => True end.
Proof. exact SafeProofs.cycle_step_safe. Qed.

(* non-vacuity: a well-formed template using for, tablerow, cycle, capture, assign and a filter on
   a type-confused input renders to Done; a division by zero is a failure, not a panic *)
Example c02_nonvacuous :
  let x := [120%N] in let c := [99%N] in
  let one := ELit (VScalar (SInt 1)) in let three := ELit (VScalar (SInt 3)) in
  let t := [NFor x (RCounted one three) None None false
              [NCycle [] [ELit (VScalar (SStr [97%N])); ELit (VScalar (SStr [98%N]))];
               NCapture c [NOutput (EVar (SStr x) [], [(FM FTimes, [ELit (VScalar (SStr [50%N]))])])];
               NOutput (EVar (SStr c) [], [])] None;
            NTableRow x (RArray (ELit (VArray [VNil; VScalar (SBool true)]))) (Some one) None None [NText [46%N]]] in
  twf t /\
  (match render_top no_oracle_v (fun _ => Err EOther) 1 t [] sink0 with (o, _, _) => o = ODone end) /\
  (match render_top no_oracle_v (fun _ => Err EOther) 1 [NOutput (ELit (VScalar (SInt 1)), [(FM FDividedBy, [ELit (VScalar (SInt 0))])])] [] sink0
   with (o, _, _) => o = OFail EInvalidArgument end).
Proof.
  split; [|vm_compute; split; reflexivity].
  repeat (constructor; try discriminate).
Qed.
(* the validity hypotheses are satisfiable: the same template and the oracle without tables *)
Example c02_hypotheses_nonvacuous :
  oracle_valid no_oracle_v /\
  tvalid [NFor [120%N] (RCounted (ELit (VScalar (SInt 1))) (ELit (VScalar (SInt 3)))) None None false
            [NCycle [] [ELit (VScalar (SStr [97%N])); ELit (VScalar (SStr [233%N]))];
             NCapture [99%N] [NOutput (EVar (SStr [120%N]) [], [(FS QUpcase, [])])]] None].
Proof.
  split.
  - split; [|split; [|split]].
    + intro f. reflexivity.
    + intros c H. cbn. unfold sv. cbn [forallb]. rewrite H. reflexivity.
    + intros c H. cbn. unfold sv. cbn [forallb]. rewrite H. reflexivity.
    + intros s H. cbn. unfold sv in *. induction s as [|c t IH]; [reflexivity|]. cbn [forallb map] in *.
      apply andb_true_iff in H as [H1 H2]. rewrite H1, IH by exact H2. reflexivity.
  - repeat (constructor; try reflexivity).
Qed.

Print Assumptions render_never_panics.
Print Assumptions render_output_is_utf8.
Print Assumptions render_never_panics_weaker.
Print Assumptions filters_keep_text_valid.
Print Assumptions every_node_safe.
Print Assumptions table_store_ok.
Print Assumptions math_filters_never_panic.
Print Assumptions html_filters_never_panic.
Print Assumptions string_array_filters_only_sort_site.
Print Assumptions expressions_never_panic.
Print Assumptions conditions_safe.
Print Assumptions set_global_total.
Print Assumptions set_index_total.
Print Assumptions cycle_needs_a_value.
