(* C03 — Literal text is preserved; trim markers, raw and comment do exactly their job.
   Statements only; proofs in proofs/PegProofs.v, RawProofs.v, PegPos.v and TreeShape.v, about coq/gen/Grammar.v — the grammar as generated
   from crates/core/src/parser/grammar.pest on this run — under the pest semantics of model/Peg.v.

   PARTIAL.  Proved, for the generated grammar and every text:
     - which characters are whitespace to it, and that the whitespace star — the only thing a trim
       marker on a delimiter adds to it (the start rules put a whitespace star before the marked
       opening delimiter, the end rules after the marked closing one) and what separates a
       delimiter from its content — consumes exactly the maximal run of space, tab, LF, CR and
       nothing else, in every atomicity mode in which the grammar uses it;
     - a text that contains no brace is exactly ONE Raw element spanning all of it followed by EOI
       (no_markup_is_one_raw): with parser.rs's `Raw -> Text(span)` and Text::render_to's plain
       write this is "a template without markup renders to itself"; the empty text has no element.
     - the delimiter rules and the Raw rule, exactly, on every text (RawProofs): an opening delimiter is
       `whitespace* {%-` (resp. `{{-`) or else the bare `{%` (`{{`); a closing delimiter is `-%}` (`-}}`)
       TOGETHER WITH the maximal whitespace run after it (right trim) or else the bare `%}` (`}}`); Raw is
       the longest prefix in which no position starts markup (raw_rule_exact, raw_len), where a
       whitespace run in front of a trim-marked opener is markup — so it is NOT part of the text element
       (left_trim_excludes_whitespace) — and in front of a plain opener it is text
       (plain_opener_keeps_whitespace).
     - nothing of the source is lost or duplicated by the lexing: for every text the parse finishes with top-level
       elements (Expression / Tag / Raw / InvalidLiquid) that tile it from the first character to the last, and the
       concatenation of their texts is the text (source_is_the_concatenation_of_its_elements, elements_tile_the_text).
   Not proved (decided by the structural oracle and the pair-stream correspondence of
   tools/props/c03.py on every generated template): the same for texts with stray single braces
   (a brace not followed by a brace or percent sign) as a one-element statement, the span recovery of raw blocks and the discarding of comments. *)
From LV Require Import Base Peg PegTree Grammar PegProofs RawProofs TreeProofs TreeShape.

Theorem whitespace_rule : forall fuel la s pos, 6 <= fuel ->
  ev liquid_grammar liquid_ws fuel Atomic la (PRef r_WHITESPACE) s pos =
  Some (match s with
        | c :: r => if (c =? 13)%N then match r with 10%N :: r' => Some (r', pos + 2, []) | _ => Some (r, pos + 1, []) end
                    else if is_ws c then Some (r, pos + 1, []) else None
        | [] => None
        end).
Proof. exact (PegProofs.ws_rule_one_any Atomic). Qed.
Theorem whitespace_run_exact : forall la s pos fuel, 8 + length s <= fuel ->
  ev liquid_grammar liquid_ws fuel Atomic la (PStar (PRef r_WHITESPACE)) s pos =
  Some (Some (drop_ws s, pos + count_ws s, [])).
Proof. exact (fun la s pos fuel => PegProofs.ws_star_any Atomic la s pos fuel ltac:(discriminate)). Qed.
(* drop_ws removes a prefix made of whitespace only, and what remains does not start with whitespace *)
Theorem drop_ws_is_the_maximal_run : forall s,
  exists w, s = w ++ drop_ws s /\ forallb is_ws w = true /\ ws_head (drop_ws s) = false /\ length w = count_ws s.
Proof. exact PegProofs.drop_ws_spec. Qed.

Theorem whitespace_run_exact_any_mode : forall at_ la s pos fuel, at_ <> NonAtomic -> 8 + length s <= fuel ->
  ev liquid_grammar liquid_ws fuel at_ la (PStar (PRef r_WHITESPACE)) s pos =
  Some (Some (drop_ws s, pos + count_ws s, [])).
Proof. exact PegProofs.ws_star_any. Qed.
(* a template without markup: one Raw element covering the whole text, then EOI *)
Theorem no_markup_is_one_raw : forall c t fuel, no_brace (c :: t) = true -> 40 + length t <= fuel ->
  parse liquid_grammar liquid_ws fuel r_LaxLiquidFile (c :: t) =
  Some (Some ([], S (length t),
              [mkTok r_LaxLiquidFile 0 (S (length t)); mkTok r_Raw 0 (S (length t)); mkTok eoi_id (S (length t)) (S (length t))])).
Proof. exact PegProofs.no_markup_is_one_raw. Qed.
Theorem empty_text_is_no_element : forall fuel, 40 <= fuel ->
  parse liquid_grammar liquid_ws fuel r_LaxLiquidFile [] = Some (Some ([], 0, [mkTok r_LaxLiquidFile 0 0; mkTok eoi_id 0 0])).
Proof. exact PegProofs.empty_text_is_no_element. Qed.
(* a start delimiter cannot match where no brace follows (so neither an output tag nor a tag can start) *)
Theorem no_delimiter_without_brace : forall which at_ la s pos fuel, which = r_TagStart \/ which = r_ExpressionStart ->
  at_ <> NonAtomic -> no_brace s = true -> 12 + length s <= fuel ->
  ev liquid_grammar liquid_ws fuel at_ la (PRef which) s pos = Some None.
Proof. exact PegProofs.start_fails. Qed.

(* the delimiters, exactly *)
Theorem opening_delimiter_exact : forall which plain trim at_ la s pos fuel,
  (which = r_TagStart /\ plain = open_tag /\ trim = open_tag_trim) \/ (which = r_ExpressionStart /\ plain = open_exp /\ trim = open_exp_trim) ->
  at_ <> NonAtomic -> 12 + length s <= fuel ->
  ev liquid_grammar liquid_ws fuel at_ la (PRef which) s pos = Some (start_spec plain trim s pos).
Proof. exact RawProofs.start_exact. Qed.
Theorem closing_delimiter_exact : forall which plain trim at_ la s pos fuel,
  (which = r_TagEnd /\ plain = close_tag /\ trim = close_tag_trim) \/ (which = r_ExpressionEnd /\ plain = close_exp /\ trim = close_exp_trim) ->
  at_ <> NonAtomic -> 14 + length s <= fuel ->
  ev liquid_grammar liquid_ws fuel at_ la (PRef which) s pos = Some (end_spec plain trim s pos).
Proof. exact RawProofs.end_exact. Qed.
(* the text element, exactly: up to the first position where markup starts *)
Theorem raw_rule_exact : forall s pos fuel, 20 + length s <= fuel ->
  ev liquid_grammar liquid_ws fuel Compound false (PRef r_Raw) s pos =
  Some (match raw_len s with 0 => None | n => Some (skipn n s, pos + n, [mkTok r_Raw pos (pos + n)]) end).
Proof. exact RawProofs.raw_rule_exact. Qed.
Theorem left_trim_excludes_whitespace : forall t w rest,
  no_brace t = true -> ends_nonws t = true -> all_ws w = true -> opener_trim rest = true ->
  raw_len (t ++ w ++ rest) = length t.
Proof. exact RawProofs.left_trim_excludes_whitespace. Qed.
Theorem plain_opener_keeps_whitespace : forall t w rest,
  no_brace t = true -> all_ws w = true -> opener rest = true -> opener_trim rest = false ->
  raw_len (t ++ w ++ rest) = length t + length w.
Proof. exact RawProofs.plain_opener_keeps_whitespace. Qed.
(* non-vacuity: "ab \t\n{{- x }}" has a text element of 2 characters, "ab \t\n{{ x }}" one of 5;
   "-}} \n x" closes and takes the 2 whitespace characters *)
Example trim_nonvacuous :
  raw_len [97;98;32;9;10;123;123;45;32;120;32;125;125]%N = 2 /\ raw_len [97;98;32;9;10;123;123;32;120;32;125;125]%N = 5 /\
  end_spec close_exp close_exp_trim [45;125;125;32;10;120]%N 7 = Some ([120]%N, 12, []).
Proof. vm_compute. repeat split; reflexivity. Qed.

(* every text is tiled by its top-level elements; their texts, in order, are the text *)
Theorem elements_tile_the_text : forall s, exists f, forall f', f <= f' ->
  exists body,
    parse_tree liquid_grammar liquid_ws f' r_LaxLiquidFile s =
      Some (Some ([], length s, [TNode (mkTok r_LaxLiquidFile 0 (length s)) (body ++ [TNode (mkTok eoi_id (length s) (length s)) []])])) /\
    Forall (fun t => In (root t) [r_Expression; r_Tag; r_Raw; r_InvalidLiquid]) body /\
    tiles 0 (length s) body.
Proof. exact TreeShape.elements_tile_the_text. Qed.
Theorem source_is_the_concatenation_of_its_elements : forall s, exists f, forall f', f <= f' ->
  exists body,
    parse_tree liquid_grammar liquid_ws f' r_LaxLiquidFile s =
      Some (Some ([], length s, [TNode (mkTok r_LaxLiquidFile 0 (length s)) (body ++ [TNode (mkTok eoi_id (length s) (length s)) []])])) /\
    concat (map (span_text s) body) = s.
Proof. exact TreeShape.source_is_the_concatenation_of_its_elements. Qed.
(* the position reported by any evaluation is the number of characters consumed (any grammar) *)
Theorem positions_count_characters : forall g ws f at_ la e s pos s' p' t,
  ev g ws f at_ la e s pos = Some (Some (s', p', t)) -> p' + length s' = pos + length s.
Proof. exact PegPos.ev_pos. Qed.

(* non-vacuity: "a \t\r\n{{- 1 -}}\n b" lexes to Raw "a", the output tag from 1 to 16, Raw "b": both
   whitespace runs, tab and CRLF included, belong to the trimmed tag *)
Example c03_nonvacuous :
  match parse liquid_grammar liquid_ws 300 r_LaxLiquidFile [97;32;9;13;10;123;123;45;32;49;32;45;125;125;10;32;98]%N with
  | Some (Some (_, _, ts)) =>
      map (fun t => (t_rule t, t_start t, t_end t)) (filter (fun t => Nat.eqb (t_rule t) r_Raw || Nat.eqb (t_rule t) r_Expression) ts)
      = [(r_Raw, 0, 1); (r_Expression, 1, 16); (r_Raw, 16, 17)]
  | _ => False
  end.
Proof. vm_compute. reflexivity. Qed.

Print Assumptions whitespace_rule.
Print Assumptions whitespace_run_exact.
Print Assumptions drop_ws_is_the_maximal_run.
Print Assumptions whitespace_run_exact_any_mode.
Print Assumptions no_markup_is_one_raw.
Print Assumptions empty_text_is_no_element.
Print Assumptions no_delimiter_without_brace.
Print Assumptions opening_delimiter_exact.
Print Assumptions closing_delimiter_exact.
Print Assumptions raw_rule_exact.
Print Assumptions left_trim_excludes_whitespace.
Print Assumptions plain_opener_keeps_whitespace.
Print Assumptions elements_tile_the_text.
Print Assumptions source_is_the_concatenation_of_its_elements.
Print Assumptions positions_count_characters.
