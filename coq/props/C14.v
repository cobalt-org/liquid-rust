(* C14 — Array filters neither invent nor lose elements beyond their contract.
   Statements only; proofs in proofs/ArrProofs.v.
   sort/sort_natural use slice::sort_by, whose result std specifies only for a comparator that
   is a total preorder on the input.  KnownClass (known_findings.txt: sort-incomparable) is
   exactly the complement: `total_preorder_on cmp l = false`; outside it everything is proved. *)
From Coq Require Import Permutation Sorted.
From LV Require Import Base Value Filters_seq ArrProofs.

Section Sort.
Context {A : Type} (cmp : A -> A -> comparison).
(* a permutation, for any comparator *)
Theorem sort_perm : forall l, Permutation (stable_sort cmp l) l.
Proof. exact (ArrProofs.sort_perm cmp). Qed.
(* outside the known class: specified, a permutation, non-decreasing, idempotent *)
Theorem sort_by_spec : forall l, total_preorder_on cmp l = true ->
  sort_by cmp l = Ok (stable_sort cmp l) /\ Permutation (stable_sort cmp l) l /\
  StronglySorted (fun a b => leq cmp a b = true) (stable_sort cmp l) /\ stable_sort cmp (stable_sort cmp l) = stable_sort cmp l.
Proof. exact (ArrProofs.sort_by_spec cmp). Qed.
(* ... and stable: the elements equivalent to any given one keep their relative order *)
Theorem sort_stable : forall P, total_preorder cmp P -> forall x l, P x -> Forall P l ->
  filter (equiv_to cmp x) (stable_sort cmp l) = filter (equiv_to cmp x) l.
Proof. exact (ArrProofs.sort_stable cmp). Qed.
(* the known class is exactly where the model says "unspecified" *)
Theorem sort_by_unspecified_iff : forall l, (exists s, sort_by cmp l = Panic s) <-> total_preorder_on cmp l = false.
Proof. exact (ArrProofs.sort_by_unspecified_iff cmp). Qed.
End Sort.
(* witness that the known class is inhabited by ordinary data: 1, "a", 2 — 1 and 2 are ordered,
   "a" is unordered with both *)
Theorem sort_known_class_witness :
  total_preorder_on sort_cmp [VScalar (SInt 2); VScalar (SStr [97%N]); VScalar (SInt 1)] = false.
Proof. vm_compute. reflexivity. Qed.
(* nil sorts last *)
Theorem nil_sorts_last : forall b, is_nil b = false ->
  cmp_or_eq (nil_safe_compare VNil b) = Gt /\ cmp_or_eq (nil_safe_compare b VNil) = Lt.
Proof. exact ArrProofs.nil_safe_nil_last. Qed.

(* uniq drops exactly the elements equal to an earlier kept one *)
Theorem uniq_kept_are_new : forall l seen pre x post, uniq_go seen l = pre ++ x :: post ->
  existsb (fun v => value_eq v x) (seen ++ pre) = false.
Proof. exact ArrProofs.uniq_kept_are_new. Qed.
Theorem uniq_dropped_have_witness : forall l seen x, In x l ->
  existsb (fun v => value_eq v x) (seen ++ uniq_go seen l) = true \/ In x (uniq_go seen l).
Proof. exact ArrProofs.uniq_dropped_have_witness. Qed.
Theorem uniq_subseq : forall seen l x, In x (uniq_go seen l) -> In x l.
Proof. exact ArrProofs.uniq_go_subseq. Qed.

Section C14.
Variable O : oracle.
Notation sf := (seq_filter O).
Theorem reverse_spec : forall l, sf QReverse (VArray l) [] = Ok (VArray (rev l)) /\ Permutation (rev l) l /\ rev (rev l) = l.
Proof. exact (ArrProofs.reverse_spec O). Qed.
Theorem compact_spec : forall l, sf QCompact (VArray l) [] = Ok (VArray (filter (fun v => negb (is_nil v)) l)).
Proof. exact (ArrProofs.compact_spec O). Qed.
Theorem concat_spec : forall l m, sf QConcat (VArray l) [VArray m] = Ok (VArray (l ++ m)) /\ length (l ++ m) = length l + length m.
Proof. exact (ArrProofs.concat_spec O). Qed.
Theorem map_spec : forall l p, sf QMap (VArray l) [sstr p] =
  Ok (VArray (flat_map (fun v => match v with VObject kvs => match lookup p kvs with Some x => [x] | None => [] end | _ => [] end) l)).
Proof. exact (ArrProofs.map_spec O). Qed.
Theorem where_spec : forall l p t, forallb is_object l = true -> sf QWhere (VArray l) [sstr p; t] =
  Ok (VArray (filter (fun v => match v with VObject kvs => match lookup p kvs with Some x => value_eq t x | None => false end | _ => false end) l)).
Proof. exact (ArrProofs.where_spec O). Qed.
Theorem where_truthy_spec : forall l p, forallb is_object l = true -> sf QWhere (VArray l) [sstr p] =
  Ok (VArray (filter (fun v => match v with VObject kvs => match lookup p kvs with Some x => truthy x | None => false end | _ => false end) l)).
Proof. exact (ArrProofs.where_truthy_spec O). Qed.
Theorem uniq_spec : forall l, sf QUniq (VArray l) [] = Ok (VArray (uniq_go [] l)).
Proof. exact (ArrProofs.uniq_spec O). Qed.
Theorem first_last_size : forall l, sf QFirst (VArray l) [] = Ok (nth 0 l VNil) /\ sf QLast (VArray l) [] = Ok (nth (length l - 1) l VNil) /\
  sf QSize (VArray l) [] = Ok (VScalar (SInt (Z.of_nat (length l)))).
Proof. exact (ArrProofs.first_last_size O). Qed.
Theorem slice_array : forall l off len, (1 <= len)%Z ->
  sf QSlice (VArray l) [VScalar (SInt off); VScalar (SInt len)] = Ok (VArray (slice_list off len l)).
Proof. exact (ArrProofs.slice_array O). Qed.
Theorem join_spec : forall l sep, sf QJoin (VArray l) [sstr sep] = Ok (sstr (join_str sep (map (to_kstr O) l))).
Proof. exact (ArrProofs.join_spec O). Qed.
(* forall l, ~ KnownClass l -> the sort filter returns the stable sorted permutation *)
Theorem sort_filter_spec : forall l, total_preorder_on sort_cmp l = true ->
  sf QSort (VArray l) [] = Ok (VArray (stable_sort sort_cmp l)).
Proof. exact (ArrProofs.sort_filter_spec O). Qed.
Theorem sort_filter_known_class : forall l, total_preorder_on sort_cmp l = false ->
  sf QSort (VArray l) [] = Panic site_sort_unspecified.
Proof. exact (ArrProofs.sort_filter_unspecified O). Qed.
End C14.

(* non-vacuity: comparable scalars with duplicates, an int/float tie and nils *)
Example c14_nonvacuous :
  let l := [VScalar (SInt 2); VNil; VScalar (SFloat (f_of_Z 2)); VScalar (SInt 1); VNil] in
  total_preorder_on sort_cmp l = true /\
  stable_sort sort_cmp l = [VScalar (SInt 1); VScalar (SInt 2); VScalar (SFloat (f_of_Z 2)); VNil; VNil].
Proof. vm_compute. split; reflexivity. Qed.

Print Assumptions sort_perm.
Print Assumptions sort_by_spec.
Print Assumptions sort_stable.
Print Assumptions sort_by_unspecified_iff.
Print Assumptions sort_known_class_witness.
Print Assumptions nil_sorts_last.
Print Assumptions uniq_kept_are_new.
Print Assumptions uniq_dropped_have_witness.
Print Assumptions uniq_subseq.
Print Assumptions reverse_spec.
Print Assumptions compact_spec.
Print Assumptions concat_spec.
Print Assumptions map_spec.
Print Assumptions where_spec.
Print Assumptions where_truthy_spec.
Print Assumptions uniq_spec.
Print Assumptions first_last_size.
Print Assumptions slice_array.
Print Assumptions join_spec.
Print Assumptions sort_filter_spec.
Print Assumptions sort_filter_known_class.
