(* C06 — Conditionals render exactly one branch, chosen by Liquid truth and comparison.
   Statements only; proofs in proofs/EvalProofs.v (the meaning of the condition tree) and
   proofs/CondProofs.v (the grouping of `and`/`or`, proved of the parser model model/CondParse.v; the
   correspondence check compares that model with the implementation's own parser). *)
From LV Require Import Base Value Stack Eval EvalProofs CondParse CondProofs.

(* a bare value is true unless it is nil or false *)
Theorem truthiness : forall v, (forall st, v <> VState st) ->
  (truthy v = false <-> v = VNil \/ v = VScalar (SBool false)).
Proof. exact EvalProofs.truthiness. Qed.
Theorem zero_empty_are_true :
  truthy (VScalar (SInt 0)) = true /\ truthy (VScalar (SStr [])) = true /\ truthy (VArray []) = true /\ truthy (VObject []) = true.
Proof. exact EvalProofs.zero_empty_are_true. Qed.

Section C06.
Variable O : oracle. Variable ps : pstore. Variable rec : template -> est -> sink -> out.
(* an undefined name counts as nil in a bare test (and only there) *)
Theorem bare_test : forall e s, eval_cond O (CExists e) s =
  Ok (truthy (match try_eval_expr O e s with Some v => v | None => VNil end)).
Proof. exact (EvalProofs.bare_test O). Qed.
Theorem undefined_is_false : forall e s, try_eval_expr O e s = None -> eval_cond O (CExists e) s = Ok false.
Proof. exact (EvalProofs.undefined_is_false O). Qed.
(* the comparison operators are the value model's equality and ordering (C11) *)
Theorem ops_are_value_model : forall a b,
  eval_cmp O OpEq a b = Ok (value_eq a b) /\ eval_cmp O OpNe a b = Ok (negb (value_eq a b)) /\
  eval_cmp O OpLt a b = Ok (v_lt a b) /\ eval_cmp O OpGt a b = Ok (v_gt a b) /\
  eval_cmp O OpLe a b = Ok (v_le a b) /\ eval_cmp O OpGe a b = Ok (v_ge a b).
Proof. exact (EvalProofs.ops_are_value_model O). Qed.
Theorem contains_spec : forall a b,
  eval_cmp O OpContains a b =
  match a with
  | VScalar _ => Ok (str_contains (to_kstr O a) (to_kstr O b))
  | VObject kvs => Ok (match b with VScalar _ => has_key (to_kstr O b) kvs | _ => false end)
  | VArray l => Ok (existsb (fun e => value_eq e b) l)
  | _ => Err EOther
  end.
Proof. exact (EvalProofs.contains_spec O). Qed.
Theorem and_or_semantics : forall a b c s x y z,
  eval_cond O a s = Ok x -> eval_cond O b s = Ok y -> eval_cond O c s = Ok z ->
  eval_cond O (COr a (CAnd b c)) s = Ok (x || (y && z)) /\
  eval_cond O (CAnd a b) s = Ok (x && y) /\ eval_cond O (COr a b) s = Ok (x || y).
Proof. exact (EvalProofs.and_or_semantics O). Qed.

(* if / elsif / else: exactly one branch — the first whose condition holds, otherwise else,
   otherwise nothing *)
Theorem if_first_true : forall arms els s k,
  Forall (fun cb => exists v, eval_cond O (fst cb) s = Ok v) arms ->
  ropt_list O ps rec (mk_if arms els) s k =
  match List.find (fun cb => match eval_cond O (fst cb) s with Ok true => true | _ => false end) arms with
  | Some (_, b) => rlist O ps rec b s k
  | None => ropt_list O ps rec els s k
  end.
Proof. exact (EvalProofs.if_first_true O ps rec). Qed.
Theorem if_error_propagates : forall c t e s k cl, eval_cond O c s = Err cl ->
  rnode O ps rec (NIf true c t e) s k = (OFail cl, s, k).
Proof. exact (EvalProofs.if_error_propagates O ps rec). Qed.
Theorem unless_is_negation : forall c t e s k v, eval_cond O c s = Ok v ->
  rnode O ps rec (NIf false c t (Some e)) s k = rnode O ps rec (NIf true c e (Some t)) s k.
Proof. exact (EvalProofs.unless_is_negation O ps rec). Qed.
(* case / when: the first arm one of whose values equals the target *)
Theorem case_first_equal : forall whens target els s k tv, eval_expr O target s = Ok tv ->
  Forall (fun arm => Forall (fun a => exists v, eval_expr O a s = Ok v) (fst arm)) whens ->
  rnode O ps rec (NCase target whens els) s k =
  match List.find (arm_matches O tv s) whens with
  | Some (_, b) => rlist O ps rec b s k
  | None => ropt_list O ps rec els s k
  end.
Proof. exact (EvalProofs.case_first_equal O ps rec). Qed.
End C06.

(* non-vacuity: a three-arm chain whose second condition holds *)
Example c06_nonvacuous :
  let c b := CExists (ELit (VScalar (SBool b))) in
  let s := est_build [] in
  ropt_list no_oracle_v (fun _ => Err EOther) (fun _ s k => (ODone, s, k))
    (mk_if [(c false, [NText [49%N]]); (c true, [NText [50%N]]); (c true, [NText [51%N]])] (Some [NText [52%N]])) s sink0
  = (ODone, s, mkSink [50%N] None).
Proof. vm_compute. reflexivity. Qed.

(* ---- how the condition of an if / unless / elsif is read (parse_condition): atoms joined by `and` into
   groups, groups joined by `or`, both to the left — `x or y and z` is `x or (y and z)` — for every number of
   groups and atoms; the connective tokens are whatever reads as `and` / `or` / an operator ---- *)
Theorem condition_is_or_of_ands : forall and_t or_t op_t,
  t_cls and_t = TAnd -> t_cls or_t = TOr -> (forall o, t_cls (op_t o) = TOp o) ->
  forall g more, parse_condition (toks_of_cond and_t or_t op_t g more) = Ok (cond_of_cond g more).
Proof. exact CondProofs.parse_condition_groups. Qed.
Theorem or_binds_looser_than_and : forall and_t or_t, t_cls and_t = TAnd -> t_cls or_t = TOr -> forall x y z,
  parse_condition [pv x; or_t; pv y; and_t; pv z] = Ok (COr (CExists x) (CAnd (CExists y) (CExists z))) /\
  parse_condition [pv x; and_t; pv y; or_t; pv z] = Ok (COr (CAnd (CExists x) (CExists y)) (CExists z)).
Proof.
  intros a o Ha Ho x y z. split;
    [exact (CondProofs.or_and_grouping a o (fun c => mkT None (TOp c)) Ha Ho (fun _ => eq_refl) x y z)
    |exact (CondProofs.and_or_grouping a o (fun c => mkT None (TOp c)) Ha Ho (fun _ => eq_refl) x y z)].
Qed.
(* its meaning: some group all of whose atoms hold *)
Theorem condition_truth_table : forall O s truth, (forall a, eval_cond O (cond_of_atom a) s = Ok (truth a)) ->
  forall g more, eval_cond O (cond_of_cond g more) s = Ok (existsb (fun h => truth (fst h) && forallb truth (snd h)) (g :: more)).
Proof. exact CondProofs.condition_meaning. Qed.
(* every token sequence is read or rejected: the parser neither runs out of the fuel it gives itself nor reaches
   the `unreachable!()` of its peeking iterator *)
Theorem condition_parser_total : forall l, parse_condition l <> OutOfFuel /\ (forall n, parse_condition l <> Panic n).
Proof. exact CondProofs.parse_condition_total. Qed.

Print Assumptions truthiness.
Print Assumptions zero_empty_are_true.
Print Assumptions bare_test.
Print Assumptions undefined_is_false.
Print Assumptions ops_are_value_model.
Print Assumptions contains_spec.
Print Assumptions and_or_semantics.
Print Assumptions if_first_true.
Print Assumptions if_error_propagates.
Print Assumptions unless_is_negation.
Print Assumptions case_first_equal.
Print Assumptions condition_is_or_of_ands.
Print Assumptions or_binds_looser_than_and.
Print Assumptions condition_truth_table.
Print Assumptions condition_parser_total.
