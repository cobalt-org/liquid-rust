(* C11 — Value equality and ordering are coherent and construction-independent.
   Statements only; proofs in proofs/ValueProofs.v (and proofs/OrderLemmas.v). *)
From Coq Require Import Permutation.
From LV Require Import Value ValueProofs.

(* == is symmetric (values with unique object keys and without the Truthy marker, which no
   template can produce), for every recursion budget and at the API level *)
Theorem eq_sym_fuel : forall n a b, wf a -> wf b -> veq n a b = veq n b a.
Proof. exact veq_sym. Qed.
Theorem eq_sym : forall a b, wf a -> wf b -> value_eq a b = value_eq b a.
Proof. exact value_eq_sym. Qed.
(* == is reflexive, NaN excepted *)
Theorem eq_refl_noNaN : forall a, wf a -> nonan a = true -> value_eq a a = true.
Proof. exact value_eq_refl. Qed.
(* != is the negation of == *)
Theorem ne_is_negation : forall a b, value_ne a b = negb (value_eq a b).
Proof. exact value_ne_negation. Qed.
(* < and > are duals (and so are <= and >=); no hypothesis on the values *)
Theorem cmp_dual : forall a b, value_cmp b a = option_map CompOpp (value_cmp a b).
Proof. exact value_cmp_dual. Qed.
Theorem lt_gt_dual : forall a b, v_lt a b = v_gt b a /\ v_le a b = v_ge b a.
Proof. exact ValueProofs.lt_gt_dual. Qed.
(* whenever two values are ordered, <= and >= hold exactly when < or > or == does *)
Theorem le_iff : forall a b c, wf a -> wf b -> value_cmp a b = Some c ->
  v_le a b = (v_lt a b || value_eq a b) /\ v_ge a b = (v_gt a b || value_eq a b).
Proof. exact ValueProofs.le_iff. Qed.
(* values that are equal are never strictly ordered *)
Theorem eq_not_strict : forall a b, wf a -> wf b -> value_eq a b = true -> v_lt a b = false /\ v_gt a b = false.
Proof. exact value_eq_not_strict. Qed.
Theorem cmp_eq_is_eq : forall n a b, wf a -> wf b -> vcmp n a b = Some Eq -> veq n a b = true.
Proof. exact vcmp_eq_veq. Qed.
(* the outcome depends only on the values, not on the order in which object entries are
   stored or iterated *)
Theorem construction_independent_eq_l : forall n x x' b, Permutation x x' -> veq n (VObject x) b = veq n (VObject x') b.
Proof. exact veq_perm_l. Qed.
Theorem construction_independent_eq_r : forall n a y y', NoDup (keys y) -> Permutation y y' ->
  veq n a (VObject y) = veq n a (VObject y').
Proof. exact veq_perm_r. Qed.
Theorem construction_independent_cmp : forall n x x' y y', NoDup (keys x) -> NoDup (keys y) ->
  Permutation x x' -> Permutation y y' -> vcmp n (VObject x) (VObject y) = vcmp n (VObject x') (VObject y').
Proof. exact vcmp_perm. Qed.
(* ... which the code before the repair violated *)
Theorem pinned_order_dependent_refuted : exists x x' y, Permutation x x' /\ NoDup (keys x) /\
  Pinned.vcmp0 (VObject x) (VObject y) <> Pinned.vcmp0 (VObject x') (VObject y).
Proof. exact Pinned.order_dependent_refuted. Qed.
(* the excluded marker really is excluded for a reason *)
Theorem truthy_marker_asymmetric :
  value_eq (VState Empty) (VState Truthy) = true /\ value_eq (VState Truthy) (VState Empty) = false /\
  value_eq (VState Truthy) (VState Truthy) = false.
Proof. exact ValueProofs.truthy_marker_asymmetric. Qed.

(* non-vacuity: a nested multi-key object and an int/float pair satisfy the hypotheses *)
Example c11_nonvacuous :
  let o := VObject [([97%N], VScalar (SInt 1)); ([98%N], VArray [VScalar (SStr [120%N]); VScalar (SInt 2)])] in
  wf o /\ nonan o = true /\ value_cmp o o = Some Eq /\ value_eq (VScalar (SInt 1)) (VScalar (SFloat (f_of_Z 1))) = true.
Proof. split; [apply good_wf; reflexivity|]. vm_compute. repeat split; reflexivity. Qed.

Print Assumptions eq_sym_fuel.
Print Assumptions eq_sym.
Print Assumptions eq_refl_noNaN.
Print Assumptions ne_is_negation.
Print Assumptions cmp_dual.
Print Assumptions lt_gt_dual.
Print Assumptions le_iff.
Print Assumptions eq_not_strict.
Print Assumptions cmp_eq_is_eq.
Print Assumptions construction_independent_eq_l.
Print Assumptions construction_independent_eq_r.
Print Assumptions construction_independent_cmp.
Print Assumptions pinned_order_dependent_refuted.
Print Assumptions truthy_marker_asymmetric.
