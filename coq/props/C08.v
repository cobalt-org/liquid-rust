(* C08 — include shares the caller's scope; render isolates the partial.
   Statements only; proofs in proofs/IsoProofs.v (built on the generic invariant of GenInv.v) and, for the
   observational half, proofs/NonInterf.v. *)
From LV Require Import Base Value Stack Eval StackProofs ShapeProofs GenInv IsoProofs NonInterf.

(* include = the partial's body inlined in the caller's runtime, with one more frame for the
   arguments which is popped afterwards: the partial sees and rebinds the caller's variables (its
   assigns land in the caller's global layer, C04), its arguments are visible only inside, and a
   break in it is a break for the caller (the registers are shared) *)
Theorem include_is_inline : forall O ps rec p args s k pv a body,
  eval_expr O p s = Ok (VScalar pv) -> eval_args O args s [] = Ok a -> ps (to_kstr O (VScalar pv)) = Ok body ->
  rnode O ps rec (NInclude p args) s k = match rec body (push_plain a s) k with (o, s', k') => (o, pop_plain s', k') end.
Proof. exact IsoProofs.include_is_inline. Qed.
(* render runs the partial in isolation: it starts from only its explicit arguments ... *)
Theorem render_view_closed : forall O p a q q' g,
  try_get O p (FGlobal g :: FSandbox a :: q) = try_get O p (FGlobal g :: FSandbox a :: q').
Proof. exact IsoProofs.render_view_closed. Qed.
(* ... and nothing it does reaches the caller: for EVERY partial body (any template, any nesting of
   further includes and renders), afterwards the caller's registers — pending break/continue, cycle
   positions, ifchanged memory — are exactly what they were, and every frame of the caller is unchanged
   except for the contents of the counter layer (counters are shared by all layers, C18) *)
Theorem render_isolates : forall O ps d p args s k, wfr s ->
  match rnode O ps (render O ps d) (NRender p None args) s k with
  | (_, s', _) => rg s' = rg s /\ strict (fr s) (fr s')
  end.
Proof. exact IsoProofs.render_isolates. Qed.
(* the two invariants behind it, for every template and nesting depth *)
Theorem registers_inner_only : forall O ps d l, GSH RA (render O ps d l).
Proof. exact IsoProofs.registers_inner_only. Qed.
Theorem frames_below_global_kept : forall O ps d l, GSH RB (render O ps d l).
Proof. exact IsoProofs.frames_below_global_kept. Qed.
(* ... and, conversely, nothing of the caller reaches it: observational non-interference.  Two callers whose
   partial name and evaluated arguments coincide and whose counters (shared by every layer) are equal get the
   SAME bytes and the same success/failure from the partial — whatever else their scopes, assigned
   variables, loop frames, caller data, pending interrupts, cycle positions and ifchanged memories hold;
   for every partial body, any nesting of includes and renders inside it, any sink budget *)
Theorem render_output_depends_on_arguments_only : forall O ps d p args s1 s2 k,
  eval_expr O p s1 = eval_expr O p s2 -> eval_args O args s1 [] = eval_args O args s2 [] ->
  ixobj (fr s1) = ixobj (fr s2) ->
  match rnode O ps (render O ps d) (NRender p None args) s1 k, rnode O ps (render O ps d) (NRender p None args) s2 k with
  | (o1, _, k1), (o2, _, k2) => o1 = o2 /\ k1 = k2
  end.
Proof. exact NonInterf.render_noninterference. Qed.
(* the for-form evaluates its arguments again for every item, in the caller's runtime as the previous items left
   it (their increments are visible to an argument that names a counter): stated for arguments whose value does
   not depend on the runtime *)
Theorem render_for_output_depends_on_arguments_only : forall O ps d p rng x args s1 s2 k,
  eval_expr O p s1 = eval_expr O p s2 -> eval_range O rng s1 = eval_range O rng s2 -> (forall t1 t2, eval_args O args t1 [] = eval_args O args t2 []) ->
  ixobj (fr s1) = ixobj (fr s2) ->
  match rnode O ps (render O ps d) (NRender p (Some (rng, x)) args) s1 k, rnode O ps (render O ps d) (NRender p (Some (rng, x)) args) s2 k with
  | (o1, _, k1), (o2, _, k2) => o1 = o2 /\ k1 = k2
  end.
Proof. exact NonInterf.render_for_noninterference. Qed.
(* ... and for arbitrary arguments: it suffices that the argument expressions cannot tell the two callers apart, now and
   after the partial has moved the shared counters (frames related by `strict` differ in counter contents only) *)
Theorem render_for_output_general : forall O ps d p rng x args s1 s2 k, wfr s1 -> wfr s2 ->
  eval_expr O p s1 = eval_expr O p s2 -> eval_range O rng s1 = eval_range O rng s2 ->
  (forall t1 t2, strict (fr s1) (fr t1) -> strict (fr s2) (fr t2) -> ixobj (fr t1) = ixobj (fr t2) ->
     eval_args O args t1 [] = eval_args O args t2 []) ->
  ixobj (fr s1) = ixobj (fr s2) ->
  match rnode O ps (render O ps d) (NRender p (Some (rng, x)) args) s1 k, rnode O ps (render O ps d) (NRender p (Some (rng, x)) args) s2 k with
  | (o1, _, k1), (o2, _, k2) => o1 = o2 /\ k1 = k2
  end.
Proof. exact (fun O ps d p rng x args s1 s2 k _ _ => NonInterf.render_for_node_ni O ps d p rng x args s1 s2 k). Qed.
(* the two-run invariant behind both: runtimes that agree above a sandbox (frames, the sandbox's own data,
   the registers pushed since) and on the counters stay so under every template, with equal outcome and sink *)
Theorem indistinguishable_runtimes_stay_so : forall O ps d l, G2 (render O ps d l).
Proof. exact NonInterf.G2_render. Qed.

(* a missing or broken partial is an error of the tag that names it, when executed — never a crash *)
Theorem missing_partial_is_error : forall O ps rec p args s k pv a c,
  eval_expr O p s = Ok (VScalar pv) -> eval_args O args s [] = Ok a -> ps (to_kstr O (VScalar pv)) = Err c ->
  rnode O ps rec (NInclude p args) s k = (OFail c, s, k).
Proof. exact IsoProofs.missing_partial_is_error. Qed.

(* non-vacuity: a rendered partial that assigns, breaks and cycles leaves the caller's state alone,
   while the same partial included changes it *)
Example c08_nonvacuous :
  let a := [97%N] in let p := [112%N] in
  let body := [NAssign a (ELit (VScalar (SInt 9)), []); NCycle [99%N] [ELit (VScalar (SInt 1)); ELit (VScalar (SInt 2))]; NBreak] in
  let ps := fun n => if str_eqb n p then Ok body else Err EPartialMissing in
  let s := est_build [(a, VScalar (SInt 1))] in
  match rnode no_oracle_v ps (render no_oracle_v ps 2) (NRender (ELit (VScalar (SStr p))) None []) s sink0,
        rnode no_oracle_v ps (render no_oracle_v ps 2) (NInclude (ELit (VScalar (SStr p))) []) s sink0 with
  | (o1, s1, _), (o2, s2, _) => s1 = s /\ interrupted s2 = true /\ try_get no_oracle_v [SStr a] (fr s2) = Some (VScalar (SInt 9))
  end.
Proof. vm_compute. repeat split; reflexivity. Qed.

(* non-vacuity of non-interference: two callers that differ in data, assigned variables and pending
   interrupt render the partial `{% if a %}A{% else %}-{% endif %}{{ v }}{% increment n %}` with argument v identically
   (a is the caller's and invisible: both print -50) *)
Example c08_ni_nonvacuous :
  let a := [97%N] in let v := [118%N] in let nn := [110%N] in let p := [112%N] in
  let body := [NIf true (CExists (EVar (SStr a) [])) [NText [65%N]] (Some [NText [45%N]]); NOutput (EVar (SStr v) [], []); NIncrement nn] in
  let ps := fun n => if str_eqb n p then Ok body else Err EPartialMissing in
  let s1 := est_build [(a, VScalar (SInt 1))] in
  let s2 := set_regs (mkRegs (Some Brk) [] (Some [120%N])) (est_build [(a, VScalar (SInt 2)); (v, VScalar (SInt 7))]) in
  let tag := NRender (ELit (VScalar (SStr p))) None [(v, ELit (VScalar (SInt 5)))] in
  s1 <> s2 /\
  match rnode no_oracle_v ps (render no_oracle_v ps 2) tag s1 sink0, rnode no_oracle_v ps (render no_oracle_v ps 2) tag s2 sink0 with
  | (o1, _, k1), (o2, _, k2) => o1 = o2 /\ k1 = k2 /\ acc k1 <> []
  end.
Proof. split; [discriminate|]. vm_compute. repeat split; try reflexivity; discriminate. Qed.

Print Assumptions render_output_depends_on_arguments_only.
Print Assumptions render_for_output_depends_on_arguments_only.
Print Assumptions render_for_output_general.
Print Assumptions indistinguishable_runtimes_stay_so.
Print Assumptions include_is_inline.
Print Assumptions render_view_closed.
Print Assumptions render_isolates.
Print Assumptions registers_inner_only.
Print Assumptions frames_below_global_kept.
Print Assumptions missing_partial_is_error.
