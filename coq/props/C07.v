(* C07 — Variable paths and literals denote the right value or fail loudly.
   Statements only; proofs in proofs/FindProofs.v and StackProofs.v, and for the literals in LitProofs.v.
   Integer literals are followed from the text to the value: the IntegerLiteral rule of the generated
   grammar is characterised exactly, the numeral of every integer is one Literal > IntegerLiteral pair
   spanning exactly the numeral (proofs/LitProofs.v), and that text reads back as the integer.  The
   other literal kinds (floats through the f64 parser oracle, strings, keywords) are tied to these
   statements by the correspondence check (tools/props/c07.py). *)
From LV Require Import Peg Grammar LitProofs.
From LV Require Import Base Value Stack Eval StackProofs FindProofs.

(* ---- array elements: zero-based, negative indices count from the end ---- *)
Theorem array_index_spec : forall l i,
  arr_get l i = match norm_index (length l) i with Some j => nth_error l j | None => None end.
Proof. exact FindProofs.arr_get_spec. Qed.
Theorem array_index_nonneg : forall l j, arr_get l (Z.of_nat j) = nth_error l j.
Proof. exact FindProofs.arr_get_nonneg. Qed.
Theorem array_index_negative : forall l j, j < length l -> arr_get l (- Z.of_nat (S j)) = nth_error (rev l) j.
Proof. intros l j _. apply FindProofs.arr_get_from_end. Qed.
(* exactly the indices in [-len, len) resolve; nothing outside yields a neighbouring element *)
Theorem array_index_in_range : forall l i,
  arr_get l i <> None <-> (- Z.of_nat (length l) <= i < Z.of_nat (length l))%Z.
Proof. exact FindProofs.arr_get_in_range. Qed.
Theorem array_index_out_of_range : forall l i,
  (i < - Z.of_nat (length l) \/ Z.of_nat (length l) <= i)%Z -> arr_get l i = None.
Proof. exact FindProofs.arr_get_out_of_range. Qed.

Section C07.
Variable O : oracle.
(* ---- one step of a path ---- *)
Theorem array_integer_index : forall l idx i, to_integer idx = Some i -> augmented_get O (VArray l) idx = arr_get l i.
Proof. exact (FindProofs.array_integer_index O). Qed.
Theorem array_first : forall l idx, to_integer idx = None -> scalar_kstr O idx = k_first ->
  augmented_get O (VArray l) idx = hd_error l.
Proof. exact (FindProofs.array_first O). Qed.
Theorem array_last : forall l idx, to_integer idx = None -> scalar_kstr O idx = k_last ->
  augmented_get O (VArray l) idx = hd_error (rev l).
Proof. exact (FindProofs.array_last O). Qed.
Theorem array_size : forall l idx, to_integer idx = None -> scalar_kstr O idx = k_size ->
  augmented_get O (VArray l) idx = Some (VScalar (SInt (Z.of_nat (length l)))).
Proof. exact (FindProofs.array_size O). Qed.
Theorem array_other_names_missing : forall l idx, to_integer idx = None ->
  scalar_kstr O idx <> k_first -> scalar_kstr O idx <> k_last -> scalar_kstr O idx <> k_size ->
  augmented_get O (VArray l) idx = None.
Proof. exact (FindProofs.array_other O). Qed.
(* object members by key; an object's own `size`/`first` member wins over the special names *)
Theorem object_own_key : forall kvs idx x, lookup (scalar_kstr O idx) kvs = Some x -> augmented_get O (VObject kvs) idx = Some x.
Proof. exact (FindProofs.object_own_key O). Qed.
Theorem object_size : forall kvs idx, lookup (scalar_kstr O idx) kvs = None -> scalar_kstr O idx = k_size ->
  augmented_get O (VObject kvs) idx = Some (VScalar (SInt (Z.of_nat (length kvs)))).
Proof. exact (FindProofs.object_size O). Qed.
Theorem object_missing_key : forall kvs idx, lookup (scalar_kstr O idx) kvs = None -> scalar_kstr O idx <> k_size ->
  augmented_get O (VObject kvs) idx = None.
Proof. exact (FindProofs.object_missing O). Qed.
Theorem scalar_step : forall s idx,
  augmented_get O (VScalar s) idx =
  if str_eqb (scalar_kstr O idx) k_size then Some (VScalar (SInt (Z.of_nat (length (scalar_kstr O s))))) else None.
Proof. exact (FindProofs.scalar_step O). Qed.
Theorem nil_has_no_members : forall idx, augmented_get O VNil idx = None.
Proof. exact (FindProofs.nil_has_no_members O). Qed.

(* ---- a path is resolved step by step ---- *)
Theorem path_step : forall v i p,
  try_find O v (i :: p) = match augmented_get O v i with Some c => try_find O c p | None => None end.
Proof. exact (FindProofs.try_find_step O). Qed.
Theorem path_concat : forall v p q,
  try_find O v (p ++ q) = match try_find O v p with Some c => try_find O c q | None => None end.
Proof. exact (FindProofs.try_find_app O). Qed.
Theorem missing_stays_missing : forall v p q, try_find O v p = None -> try_find O v (p ++ q) = None.
Proof. exact (FindProofs.missing_stays_missing O). Qed.
Theorem find_ok_iff : forall v p r, find O v p = Ok r <-> try_find O v p = Some r.
Proof. exact (FindProofs.find_ok_iff O). Qed.
Theorem find_missing_fails : forall v p, try_find O v p = None ->
  find O v p = Err EUnknownIndex \/ find O v p = Panic site_find_should_have_errored.
Proof. exact (FindProofs.find_missing_fails O). Qed.
(* the layered lookup never reaches the panic site and agrees with the optional lookup *)
Theorem get_never_panics : forall p r, not_panic (Stack.get O p r) = true /\ Stack.get O p r <> OutOfFuel.
Proof. exact (StackProofs.get_never_panics O). Qed.

(* ---- the output tag ---- *)
Variable ps : pstore. Variable rec : template -> est -> sink -> out.
(* the bracket may hold any expression: indices are evaluated first, and must be scalars *)
Theorem output_resolved : forall root idx s k p v,
  eval_indices O idx s = Ok p -> Stack.try_get O (root :: p) (fr s) = Some v ->
  rnode O ps rec (NOutput (EVar root idx, [])) s k = write_str s k (Value.render O v).
Proof. exact (FindProofs.output_resolved O ps rec). Qed.
(* if any step does not exist the output tag fails: it neither prints nothing-and-succeeds nor a
   neighbouring element; the sink and the state are as before *)
Theorem output_missing_fails : forall root idx s k p,
  eval_indices O idx s = Ok p -> Stack.try_get O (root :: p) (fr s) = None ->
  exists c, rnode O ps rec (NOutput (EVar root idx, [])) s k = (OFail c, s, k).
Proof. exact (FindProofs.output_missing_fails O ps rec). Qed.
Theorem output_bad_index_fails : forall root idx s k c,
  eval_indices O idx s = Err c -> rnode O ps rec (NOutput (EVar root idx, [])) s k = (OFail c, s, k).
Proof. exact (FindProofs.output_bad_index_fails O ps rec). Qed.

(* ---- literals ---- *)
Theorem literal_prints : forall v s k,
  rnode O ps rec (NOutput (ELit v, [])) s k = write_str s k (Value.render O v).
Proof. exact (FindProofs.literal_prints O ps rec). Qed.
(* every integer of the 64-bit range: its numeral reads back as the integer and the integer prints as the numeral *)
Theorem integer_numeral_roundtrip : forall z, in_i64 z = true ->
  parse_i64 (show_Z z) = Some z /\ Value.render O (VScalar (SInt z)) = show_Z z.
Proof. exact (FindProofs.integer_numeral_roundtrip O). Qed.
(* a numeral is only ever converted to an integer of the 64-bit range (never wrapped) *)
Theorem integer_conversion_in_range : forall t z, parse_i64 t = Some z -> in_i64 z = true.
Proof. exact FindProofs.parse_i64_in_range. Qed.
Theorem string_bool_nil_literals : forall x b,
  Value.render O (VScalar (SStr x)) = x /\ Value.render O (VScalar (SBool b)) = show_bool b /\ Value.render O VNil = [].
Proof. exact (FindProofs.string_bool_nil_literals O). Qed.
End C07.

(* non-vacuity: o.items[-1].size resolves through an object, a negative index and the size overlay;
   o.items[-3] does not exist and the output tag fails having written nothing *)
Example c07_nonvacuous :
  let o := [111%N] in let items := [105;116;101;109;115]%N in
  let data := [(o, VObject [(items, VArray [VScalar (SStr [97;98]%N); VScalar (SStr [99;100;101]%N)])])] in
  let path i last := EVar (SStr o) ([ELit (VScalar (SStr items)); ELit (VScalar (SInt i))] ++ last) in
  (match render_top no_oracle_v (fun _ => Err EOther) 1 [NOutput (path (-1)%Z [ELit (VScalar (SStr k_size))], [])] data sink0 with
   | (r, _, k) => r = ODone /\ acc k = [51%N] end) /\
  (match render_top no_oracle_v (fun _ => Err EOther) 1 [NText [60%N]; NOutput (path (-3)%Z [], [])] data sink0 with
   | (r, _, k) => r = OFail EUnknownIndex /\ acc k = [60%N] end).
Proof. vm_compute. repeat split; reflexivity. Qed.

(* ---- integer literals, from the text of the template to the value ---- *)
(* IntegerLiteral = @{ ("+" | "-")? ~ ASCII_DIGIT+ }: an optional sign and the longest run of digits, or no match *)
Theorem integer_literal_rule : forall at_ s pos fuel, at_ <> Atomic -> 10 + length s <= fuel ->
  ev liquid_grammar liquid_ws fuel at_ false (PRef r_IntegerLiteral) s pos =
  Some (let (sg, s1) := strip_sign s in
        match span_dig s1 with
        | ([], _) => None
        | (ds, r) => Some (r, pos + sg + length ds, [mkTok r_IntegerLiteral pos (pos + sg + length ds)])
        end).
Proof. exact LitProofs.integer_rule_exact. Qed.
(* the numeral of any integer, followed by anything that is neither a digit nor a fraction, is read by the
   Literal rule as an IntegerLiteral over exactly the numeral ... *)
Theorem numeral_is_a_literal : forall z rest at_ pos fuel, no_digit_next rest -> no_fraction_next rest -> at_ <> Atomic ->
  24 + length (show_Z z ++ rest) <= fuel ->
  ev liquid_grammar liquid_ws fuel at_ false (PRef r_Literal) (show_Z z ++ rest) pos =
  Some (Some (rest, pos + length (show_Z z),
              [mkTok r_Literal pos (pos + length (show_Z z)); mkTok r_IntegerLiteral pos (pos + length (show_Z z))])).
Proof. exact LitProofs.numeral_is_a_literal. Qed.
(* ... and (integer_numeral_roundtrip above) that text is converted to z when z is in the 64-bit range, and
   rejected otherwise (integer_conversion_in_range) — never wrapped *)

Print Assumptions array_index_spec.
Print Assumptions array_index_nonneg.
Print Assumptions array_index_negative.
Print Assumptions array_index_in_range.
Print Assumptions array_index_out_of_range.
Print Assumptions array_integer_index.
Print Assumptions array_first.
Print Assumptions array_last.
Print Assumptions array_size.
Print Assumptions array_other_names_missing.
Print Assumptions object_own_key.
Print Assumptions object_size.
Print Assumptions object_missing_key.
Print Assumptions scalar_step.
Print Assumptions nil_has_no_members.
Print Assumptions path_step.
Print Assumptions path_concat.
Print Assumptions missing_stays_missing.
Print Assumptions find_ok_iff.
Print Assumptions find_missing_fails.
Print Assumptions get_never_panics.
Print Assumptions output_resolved.
Print Assumptions output_missing_fails.
Print Assumptions output_bad_index_fails.
Print Assumptions literal_prints.
Print Assumptions integer_numeral_roundtrip.
Print Assumptions integer_conversion_in_range.
Print Assumptions string_bool_nil_literals.
Print Assumptions integer_literal_rule.
Print Assumptions numeral_is_a_literal.
