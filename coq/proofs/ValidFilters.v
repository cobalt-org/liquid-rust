(* ValidFilters.v — every modelled filter returns valid text when given valid text: the hypothesis FV of
   ValidProofs.v discharged for the math, html/url, string, array, date and jekyll/shopify filters.
   Validity is `forallb` of a test on characters (sv), on strings, or on values (vv of an array), and a filter
   mostly selects, rearranges and concatenates pieces of its input and its arguments.  So the closure of
   `forallb` under the list operations and of sv under the string primitives is collected in the hint database
   `sv`; a filter is then split into the cases of its computation, and each result is valid by the database.
   props/C02.v puts [apply_filter_vv] into the two closing theorems of ValidProofs.v. *)
From LV Require Import Consts Eval BaseLemmas SafeProofs ValidProofs HtmlProofs SeqProofs ArrProofs.
From LV Require Import ValidDate.
From Coq Require Import Permutation.

Lemma forallb_slice {A} (p : A -> bool) off len l : forallb p l = true -> forallb p (slice_list off len l) = true.
Proof. intro H. unfold slice_list. destruct (_ <? 0)%Z; [reflexivity|]. apply forallb_firstn, forallb_skipn, H. Qed.

(* sv s is `forallb valid_char s` folded, which a hint about forallb does not match: the instances are stated *)
Lemma sv_cons_i c s : valid_char c = true -> sv s = true -> sv (c :: s) = true.
Proof. apply forallb_cons_i. Qed.
Lemma sv_app_i a b : sv a = true -> sv b = true -> sv (a ++ b) = true.
Proof. apply forallb_app_i. Qed.
Lemma sv_rev s : sv s = true -> sv (rev s) = true.
Proof. apply forallb_rev. Qed.
Lemma sv_firstn n s : sv s = true -> sv (firstn n s) = true.
Proof. apply forallb_firstn. Qed.
Lemma sv_filter f s : sv s = true -> sv (filter f s) = true.
Proof. apply forallb_filter. Qed.
Lemma sv_slice off len s : sv s = true -> sv (slice_list off len s) = true.
Proof. apply forallb_slice. Qed.
Lemma sv_flat_map (f : char -> str) s : (forall c, valid_char c = true -> sv (f c) = true) -> sv s = true -> sv (flat_map f s) = true.
Proof. apply forallb_flat_map. Qed.

Create HintDb sv.
#[local] Hint Resolve forallb_cons_i forallb_app_i forallb_filter forallb_slice forallb_firstn forallb_rev forallb_tl forallb_removelast
  sv_cons_i sv_app_i sv_rev sv_firstn sv_filter sv_slice sv_concat : sv.

Lemma trim_start_sv s : sv s = true -> sv (trim_start s) = true.
Proof.
  induction s as [|c t IH]; [reflexivity|]. cbn [trim_start]. destruct (is_whitespace c); [|auto].
  intros [_ H]%andb_prop. exact (IH H).
Qed.
Lemma trim_end_sv s : sv s = true -> sv (trim_end s) = true.
Proof. intro H. apply sv_rev, trim_start_sv, sv_rev, H. Qed.
Lemma trim_sv s : sv s = true -> sv (trim s) = true.
Proof. intro H. apply trim_end_sv, trim_start_sv, H. Qed.
Lemma split_go_sv p : forall s cur d, sv s = true -> sv cur = true -> forallb sv (split_go p s cur d) = true.
Proof.
  induction s as [|c t IH]; intros cur d Hs Hc; cbn [split_go]; [auto with sv|].
  apply andb_prop in Hs as [H1 H2]. destruct d; [|auto]. destruct (prefixb p (c :: t)); auto 6 with sv.
Qed.
Lemma split_str_sv p s : sv s = true -> forallb sv (split_str p s) = true.
Proof.
  intro Hs. destruct p; [|apply split_go_sv; [exact Hs|reflexivity]].
  apply (forallb_cons_i sv []); [reflexivity|]. apply forallb_app_i; [|reflexivity].
  revert Hs. apply forallb_map. auto with sv.
Qed.
Lemma join_str_sv sep l : sv sep = true -> forallb sv l = true -> sv (join_str sep l) = true.
Proof.
  intro Hs. induction l as [|x t IH]; [reflexivity|]. intros [H1 H2]%andb_prop.
  cbn [join_str]. destruct t; auto with sv.
Qed.
Lemma replace_str_sv a b s : sv b = true -> sv s = true -> sv (replace_str a b s) = true.
Proof.
  intros Hb Hs. destruct a as [|c a].
  - apply sv_app_i; [exact Hb|]. revert Hs. apply sv_flat_map. auto with sv.
  - rewrite replace_via_split by discriminate. apply join_str_sv; [exact Hb|apply split_str_sv, Hs].
Qed.
Lemma find_first_sv p : forall s cur x y, find_first p s cur = Some (x, y) -> sv s = true -> sv cur = true -> sv x = true /\ sv y = true.
Proof.
  induction s as [|c t IH]; intros cur x y E Hs Hc; cbn [find_first] in E; destruct (prefixb p _);
    try (injection E as <- <-; split; [apply sv_rev, Hc|apply forallb_skipn, Hs]).
  - discriminate.
  - apply andb_prop in Hs as [H1 H2]. apply (IH _ _ _ E); auto with sv.
Qed.
Lemma replace_first_sv p r s : sv r = true -> sv s = true ->
  sv (match find_first p s [] with Some (x, y) => x ++ r ++ y | None => s end) = true.
Proof.
  intros Hr Hs. destruct (find_first p s []) as [[x y]|] eqn:E; [|exact Hs].
  destruct (find_first_sv _ _ _ _ _ E Hs eq_refl). auto with sv.
Qed.
Lemma remove_first_sv p s : sv s = true -> sv (match find_first p s [] with Some (x, y) => x ++ y | None => s end) = true.
Proof. exact (replace_first_sv p [] s eq_refl). Qed.
Lemma last_char_sv s : sv s = true -> sv (match rev s with c :: _ => [c] | [] => [] end) = true.
Proof. intro H. apply (sv_firstn 1 (rev s)), sv_rev, H. Qed.
Lemma br_sv s : sv s = true -> sv (flat_map (fun c => if N.eqb c 10 then k_br else [c]) s) = true.
Proof. apply sv_flat_map. intros c Hc. destruct (N.eqb c 10); [reflexivity|auto with sv]. Qed.
#[local] Hint Resolve trim_start_sv trim_end_sv trim_sv split_str_sv join_str_sv replace_str_sv replace_first_sv remove_first_sv last_char_sv br_sv : sv.

Lemma consts_valid : forallb (fun e => sv (snd e)) html_escapes = true /\ sv html_amp_escaped = true /\ sv html_amp_kept = true.
Proof. repeat split. Qed.
Lemma assoc_c_sv c l e : forallb (fun e => sv (snd e)) l = true -> assoc_c c l = Some e -> sv e = true.
Proof.
  induction l as [|[d x] t IH]; cbn [assoc_c]; [discriminate|]. intros [H1 H2]%andb_prop.
  destruct (N.eqb c d); [intros [= <-]; exact H1|auto].
Qed.
Lemma esc_sv once : forall s skip, sv s = true -> sv (esc once skip s) = true.
Proof.
  destruct consts_valid as [C1 [C2 C3]].
  induction s as [|c t IH]; intros skip H; [reflexivity|]. apply andb_prop in H as [H1 H2]. cbn [esc].
  destruct skip; [|auto with sv]. destruct (memb_c c html_specials); [|auto with sv].
  destruct (assoc_c c html_escapes) eqn:A; [apply assoc_c_sv in A; auto with sv|].
  destruct (if once then nr_escaped t else 0); auto with sv.
Qed.
Lemma url_encode_sv s : sv s = true -> sv (url_encode_str s) = true.
Proof.
  intro H. apply url_encode_plain in H. unfold sv. rewrite forallb_forall in *. intros c Hc. apply H in Hc.
  unfold plain_ascii in Hc. unfold valid_char. lia.
Qed.
Lemma url_decode_sv s r : url_decode_str s = Some r -> sv r = true.
Proof. apply decode_valid. Qed.
Lemma strip_html_sv s : sv s = true -> sv (strip_html_str s) = true.
Proof. intro H. unfold strip_html_str. repeat (eapply forallb_incl; [exact (strip_subset _ _ _ _)|]). exact H. Qed.

(* A filter computes its result by cases on the input and the arguments: split the computation (innermost
   test first) until what is left of it is an `Ok`, an `Err`, or no case distinction. *)
Ltac split_on x := lazymatch x with match ?y with _ => _ end => split_on y | _ => destruct x eqn:? end.
Ltac by_cases := repeat match goal with |- match ?x with _ => _ end = Ok _ -> _ => split_on x; try discriminate end.

Lemma ok_vv (x r : value) : vv x = true -> Ok x = Ok r -> vv r = true.
Proof. intros H [= <-]. exact H. Qed.

Section FV.
Variable O : oracle.
Hypothesis HO : oracle_valid O.

Lemma kstr_valid v : vv v = true -> sv (to_kstr O v) = true.
Proof. apply (render_sv O HO). Qed.
Lemma upper_str_sv s : sv s = true -> sv (upper_str O s) = true.
Proof. apply sv_flat_map, HO. Qed.
Lemma lower_str_sv s : sv s = true -> sv (lower_str O s) = true.
Proof. apply sv_flat_map, HO. Qed.
Lemma capitalize_sv s : sv s = true -> sv (match s with [] => [] | c :: t => upper_c O c ++ t end) = true.
Proof. destruct s; [reflexivity|]. intros [H1 H2]%andb_prop. apply sv_app_i; [apply HO, H1|exact H2]. Qed.
Lemma graphemes_sv s : sv s = true -> forallb sv (graphemes O s) = true.
Proof. apply HO. Qed.
Lemma map_sstr_vv l : forallb sv l = true -> forallb vv (map sstr l) = true.
Proof. apply forallb_map. auto. Qed.
Lemma split_vv p s : sv s = true -> vv (match s with [] => VArray [] | _ => VArray (map sstr (split_str p s)) end) = true.
Proof. intro H. destruct s; [reflexivity|]. apply map_sstr_vv, split_str_sv, H. Qed.
Lemma map_kstr_sv l : forallb vv l = true -> forallb sv (map (to_kstr O) l) = true.
Proof. apply forallb_map, kstr_valid. Qed.
Hint Resolve kstr_valid upper_str_sv lower_str_sv capitalize_sv graphemes_sv map_sstr_vv split_vv map_kstr_sv : sv.

Lemma prop_get_vv v p : vv v = true -> vv (prop_get v p) = true.
Proof.
  destruct v; cbn [prop_get]; intro H; try reflexivity.
  destruct (lookup p kvs) eqn:L; [exact (lookup_vv _ _ _ H L)|reflexivity].
Qed.

(* numbers contain no text *)
Lemma num2_vv iop fop i o r : num2 O iop fop i o = Ok r -> vv r = true.
Proof. unfold num2. by_cases; apply ok_vv; reflexivity. Qed.
Lemma math_filter_vv f v args r : math_filter O f v args = Ok r -> vv r = true.
Proof.
  destruct f; destruct args as [|a [|b args]]; try discriminate; cbn [math_filter]; by_cases;
    try apply num2_vv; apply ok_vv; reflexivity.
Qed.

Lemma html_filter_vv f v r : vv v = true -> html_filter O f v = Ok r -> vv r = true.
Proof.
  intro Hv. apply kstr_valid in Hv. destruct f; cbn [html_filter]; by_cases; apply ok_vv; try reflexivity; cbn [vv].
  all: eauto using esc_sv, url_encode_sv, url_decode_sv, strip_html_sv.
Qed.

Lemma varray_vv l : vv (VArray l) = true -> forallb vv l = true.
Proof. exact (fun H => H). Qed.
Lemma as_sequence_vv v : vv v = true -> forallb vv (as_sequence v) = true.
Proof. destruct v; cbn [as_sequence]; auto using varray_vv with sv. Qed.
Lemma hd_vv l : forallb vv l = true -> vv (match l with x :: _ => x | [] => VNil end) = true.
Proof. destruct l; [reflexivity|]. intros [H _]%andb_prop. exact H. Qed.
Lemma if_vv (b : bool) x y : vv x = true -> vv y = true -> vv (if b then x else y) = true.
Proof. destruct b; auto. Qed.
Lemma uniq_go_vv seen l : forallb vv l = true -> forallb vv (uniq_go seen l) = true.
Proof. apply forallb_incl. exact (uniq_go_subseq seen l). Qed.
Lemma map_prop_vv p l : forallb vv l = true ->
  forallb vv (flat_map (fun v0 => match v0 with VObject kvs => match lookup p kvs with Some x => [x] | None => [] end | _ => [] end) l) = true.
Proof.
  apply forallb_flat_map. intros [| |kvs| |] H; try reflexivity. destruct (lookup p kvs) eqn:L; [|reflexivity].
  cbn [forallb]. rewrite (lookup_vv _ _ _ H L). reflexivity.
Qed.
Lemma sort_by_vv {A} (p : A -> bool) cmp l r : sort_by cmp l = Ok r -> forallb p l = true -> forallb p r = true.
Proof.
  unfold sort_by. destruct (total_preorder_on cmp l); intros [= <-]. apply forallb_incl.
  intros x. apply Permutation_in, sort_perm.
Qed.
Lemma keyed_sort_vv {K} cmp (kf : value -> K) l r :
  sort_by cmp (map (fun v => (kf v, v)) l) = Ok r -> forallb vv l = true -> forallb vv (map snd r) = true.
Proof.
  intros E H. apply (forallb_map (fun kv => vv (snd kv))); [auto|].
  apply (sort_by_vv _ _ _ _ E). revert H. apply forallb_map. auto.
Qed.
Hint Resolve as_sequence_vv varray_vv hd_vv if_vv uniq_go_vv map_prop_vv : sv.
(* the sort whose result is in the goal is found among the hypotheses, where by_cases left it *)
Hint Extern 1 (forallb vv _ = true) =>
  match goal with E : sort_by _ _ = Ok _ |- _ => first [apply (sort_by_vv _ _ _ _ E) | apply (keyed_sort_vv _ _ _ _ E)] end : sv.

Lemma seq_filter_vv f v args r : vv v = true -> forallb vv args = true -> seq_filter O f v args = Ok r -> vv r = true.
Proof.
  intros Hv Ha. pose proof (kstr_valid v Hv) as Hs. rewrite forallb_forall in Ha.
  destruct f; destruct args as [|a [|b [|c args]]]; try discriminate; cbn [seq_filter nth_error opt_int bind]; unfold arg_str, bind.
  all: by_cases; apply ok_vv; cbn [vv sstr].
  all: auto 6 with sv datatypes.
Qed.

Lemma date_filter_vv v args r : vv v = true -> forallb vv args = true -> date_filter O v args = Ok r -> vv r = true.
Proof.
  intros Hv Ha. destruct args as [|a [|b args']]; try discriminate. apply andb_prop in Ha as [Ha _]. apply kstr_valid in Ha.
  cbn [date_filter]. by_cases; apply ok_vv; try exact Hv.
  cbn [vv]. eapply strftime_sv; eassumption.
Qed.

Lemma sentence_tail_sv conn l : sv conn = true -> forallb vv l = true -> sv (sentence_tail O conn l) = true.
Proof.
  intros Hc. induction l as [|v t IH]; [reflexivity|]. intros [Hv Ht]%andb_prop.
  cbn [sentence_tail]. destruct t; auto 7 using (render_sv O HO) with sv.
Qed.
Lemma sentence_sv conn v t : sv conn = true -> forallb vv (v :: t) = true -> sv (to_kstr O v ++ sentence_tail O conn t) = true.
Proof. intros Hc [Hv Ht]%andb_prop. auto using sentence_tail_sv with sv. Qed.
Lemma extra_filter_vv f v args r : vv v = true -> forallb vv args = true -> extra_filter O f v args = Ok r -> vv r = true.
Proof.
  intros Hv Ha. rewrite forallb_forall in Ha.
  destruct f; destruct args as [|a [|b [|c args]]]; try discriminate; cbn [extra_filter]; by_cases; apply ok_vv; cbn [vv] in *.
  all: auto 6 using sentence_sv with sv datatypes.
Qed.

Theorem apply_filter_vv f v args r : vv v = true -> forallb vv args = true -> apply_filter O f v args = Ok r -> vv r = true.
Proof.
  intros Hv Ha. destruct f; cbn [apply_filter].
  - apply math_filter_vv.
  - destruct args; [apply html_filter_vv; exact Hv|discriminate].
  - apply seq_filter_vv; assumption.
  - apply date_filter_vv; assumption.
  - apply extra_filter_vv; assumption.
Qed.
End FV.
