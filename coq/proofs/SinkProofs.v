(* C10: the sink-prefix theorem for the full evaluator, by simulation between the run into an
   unbounded sink and the run into a sink that accepts m more bytes. *)
From LV Require Import Eval EvalInd EvalProofs.

Definition mk (a : list byte) (b : option nat) : sink := mkSink a b.

(* f, started with `a` already accepted: unbounded it appends some w; with budget m it behaves
   identically when |w| <= m, and otherwise fails with a sink error having accepted exactly the first
   m bytes of w *)
Definition SP (f : est -> sink -> out) : Prop :=
  forall s a m,
    match f s (mk a None) with (oi, si, ki) =>
      exists w, ki = mk (a ++ w) None /\
        match f s (mk a (Some m)) with (o, s', k') =>
          if Nat.leb (length w) m
          then o = oi /\ s' = si /\ k' = mk (a ++ w) (Some (m - length w))
          else o = OFail ESink /\ k' = mk (a ++ firstn m w) (Some 0)
        end
    end.
Definition SPk (g : sink -> out) : Prop := SP (fun _ k => g k).
Lemma SP_pointwise f : (forall s, SPk (f s)) -> SP f.
Proof. intros H s a m. apply (H s s a m). Qed.
Lemma SPk_of_SP f s : SP f -> SPk (f s).
Proof. intros H _ a m. apply (H s a m). Qed.
Lemma SP_ext f g : (forall s k, g s k = f s k) -> SP f -> SP g.
Proof. intros E H s a m. rewrite !E. apply H. Qed.

Lemma SP_ret (r : est -> ores * est) : SP (fun s k => (r s, k)).
Proof.
  intros s a m. destruct (r s) as [o s']. exists []. rewrite app_nil_r, Nat.sub_0_r. cbn. auto.
Qed.
Lemma SP_write t : SP (fun s k => write_str s k t).
Proof.
  intros s a m. unfold write_str, write, mk; simpl. exists (encode t); split; [reflexivity|].
  destruct (Nat.leb (length (encode t)) m) eqn:E; simpl; auto.
Qed.
Lemma SPk_write s t : SPk (fun k => write_str s k t).
Proof. exact (SPk_of_SP _ s (SP_write t)). Qed.

Lemma leb_add a b m : Nat.leb (a + b) m = Nat.leb a m && Nat.leb b (m - a).
Proof. rewrite Bool.eq_iff_eq_true, Bool.andb_true_iff, !Nat.leb_le. lia. Qed.

(* f, then F on f's outcome, state and sink.  If what f writes fits the budget, both runs of F start
   from the same state, the bounded one with what is left of the budget; if not, the bounded run has
   failed inside f and F must pass that failure on, while what the unbounded run of F appends lies
   beyond the budget anyway. *)
Lemma SP_bind f (F : ores -> est -> sink -> out) :
  SP f -> (forall s' k', exists s2, F (OFail ESink) s' k' = (OFail ESink, s2, k')) -> (forall o s', SPk (F o s')) ->
  SP (fun s k => match f s k with (o, s', k') => F o s' k' end).
Proof.
  intros Hf Hfail HF s a m. specialize (Hf s a m).
  destruct (f s (mk a None)) as [[o1 s1] k1]. destruct Hf as [w1 [-> Hf]].
  destruct (f s (mk a (Some m))) as [[o s'] k'].
  destruct (Nat.leb (length w1) m) eqn:L.
  - destruct Hf as [-> [-> ->]]. specialize (HF o1 s1 s1 (a ++ w1) (m - length w1)).
    destruct (F o1 s1 (mk (a ++ w1) None)) as [[o3 s3] k3]. destruct HF as [w2 [-> HF]].
    exists (w1 ++ w2). rewrite app_assoc, app_length, leb_add, L. split; [reflexivity|].
    destruct (F o1 s1 (mk (a ++ w1) (Some (m - length w1)))) as [[o4 s4] k4]. apply Nat.leb_le in L.
    destruct (Nat.leb (length w2) (m - length w1)); cbn [andb].
    + rewrite Nat.sub_add_distr. exact HF.
    + rewrite firstn_app, firstn_all2, app_assoc by exact L. exact HF.
  - destruct Hf as [-> ->]. destruct (Hfail s' (mk (a ++ firstn m w1) (Some 0))) as [s2 ->].
    specialize (HF o1 s1 s1 (a ++ w1) 0).
    destruct (F o1 s1 (mk (a ++ w1) None)) as [[o3 s3] k3]. destruct HF as [w2 [-> _]].
    exists (w1 ++ w2). rewrite app_assoc, app_length, leb_add, L. split; [reflexivity|]. apply Nat.leb_gt in L.
    rewrite firstn_app. replace (m - length w1) with 0 by lia. rewrite app_nil_r. split; reflexivity.
Qed.

Lemma SP_seq f cont : SP f -> SP cont -> SP (fun s k => seq_step (f s k) cont).
Proof.
  intros Hf Hc.
  apply (SP_ext (fun s k => match f s k with (o, s', k') =>
           match o with ODone => if interrupted s' then (ODone, s', k') else cont s' k' | _ => (o, s', k') end end)).
  - intros s k. unfold seq_step. destruct (f s k) as [[[] ?] ?]; reflexivity.
  - apply SP_bind; [exact Hf|intros; eexists; reflexivity|]. intros [| |] s'; try apply SP_ret.
    destruct (interrupted s'); [apply SP_ret|apply SPk_of_SP, Hc].
Qed.
Lemma SPk_write_then s t (c : sink -> out) : SPk c ->
  SPk (fun k => match write_str s k t with (ODone, _, k1) => c k1 | o => o end).
Proof.
  intro Hc.
  apply (SP_ext (fun _ k => match write_str s k t with (o, s', k1) => match o with ODone => c k1 | _ => (o, s', k1) end end)).
  - intros _ k. destruct (write_str s k t) as [[[] ?] ?]; reflexivity.
  - apply (SP_bind (fun _ k => write_str s k t)); [apply SPk_write|intros; eexists; reflexivity|].
    intros [| |] s'; [exact Hc|apply SP_ret..].
Qed.

Lemma SP_for body x len parent : SP body -> forall vs i, SP (for_loop body x len parent vs i).
Proof.
  intros Hb. induction vs as [|v vs IH]; intro i; [apply SP_ret|]. apply SP_pointwise; intro s.
  eapply SP_ext; [intros ? k; apply for_loop_cons|].
  apply SP_bind; [exact (SPk_of_SP body _ Hb)|intros; eexists; reflexivity|]. intros [| |] s'; try apply SP_ret.
  destruct (r_intr (get_regs (pop_plain s'))) as [[|]|]; try apply SP_ret; apply SPk_of_SP, IH.
Qed.
Lemma SP_tablerow body x len cols : SP body -> forall vs i, SP (tablerow_loop body x len cols vs i).
Proof.
  intros Hb. induction vs as [|v vs IH]; intro i; [apply SP_ret|]. apply SP_pointwise; intro s.
  eapply SP_ext; [intros ? k; apply tablerow_loop_cons|].
  apply SPk_write_then. apply SP_bind; [exact (SPk_of_SP body _ Hb)|intros; eexists; reflexivity|].
  intros [| |] s'; try apply SP_ret. apply SPk_write_then, SPk_of_SP, IH.
Qed.
Lemma SP_render_for body x len base : SP body -> forall vs i, SP (render_for_loop body x len base vs i).
Proof.
  intros Hb. induction vs as [|v vs IH]; intro i; [apply SP_ret|]. apply SP_pointwise; intro s.
  eapply SP_ext; [intros ? k; apply render_for_loop_cons|].
  destruct (base s) as [b| | |]; cbn [of_res]; try apply SP_ret.
  apply SP_bind; [exact (SPk_of_SP body _ Hb)|intros; eexists; reflexivity|]. intros [| |] s'; try apply SP_ret.
  destruct (match r_intr (get_regs s') with Some Brk => true | _ => false end); [apply SP_ret|apply SPk_of_SP, IH].
Qed.

(* running a body into a private, unbounded buffer never touches the sink *)
Lemma SPk_private (r : out) (h : ores -> est -> sink -> ores * est + (est -> sink -> out) * est) :
  (forall o s' kc c s2, h o s' kc = inr (c, s2) -> SP c) ->
  SPk (fun k => match r with (o, s', kc) => match h o s' kc with inl (o2, s2) => (o2, s2, k) | inr (c, s2) => c s2 k end end).
Proof.
  intros Hc. destruct r as [[o s'] kc]. destruct (h o s' kc) as [[o2 s2]|[c s2]] eqn:E; [apply SP_ret|].
  exact (SPk_of_SP c s2 (Hc _ _ _ _ _ E)).
Qed.

Section SPAll.
Variable O : oracle. Variable ps : pstore.
Variable rec : template -> est -> sink -> out.
Hypothesis rec_SP : forall l, SP (rec l).
Notation rn := (rnode O ps rec).
Notation rl := (rlist O ps rec).

Lemma SP_rlist_of l : Forall (fun n => SP (rn n)) l -> SP (rl l).
Proof. induction 1 as [|n l Hn _ IH]; [apply SP_ret|]. exact (SP_seq (rn n) (rl l) Hn IH). Qed.
Lemma SP_ropt o : optF (fun n => SP (rn n)) o -> SP (ropt_list O ps rec o).
Proof. destruct o as [l|]; simpl; intro H; [apply SP_rlist_of; exact H|apply SP_ret]. Qed.

Lemma SPk_of_res {A} (r : res A) s (F : A -> sink -> out) :
  (forall a, SPk (F a)) -> SPk (fun k => of_res r s k (fun a => F a k)).
Proof. intro H. destruct r; cbn [of_res]; [apply H|apply SP_ret..]. Qed.

Lemma case_any_SP tv body (rest : sink -> out) st : SPk rest -> SP (rl body) -> forall l,
  SPk (fun k => when_any O ps rec tv body (rest k) st k l).
Proof.
  intros Hr Hb. induction l as [|a l IH]; [exact Hr|].
  eapply SP_ext; [intros ? k; apply when_any_cons|]. apply SPk_of_res; intro av.
  destruct (value_eq av tv); [apply SPk_of_SP; exact Hb|exact IH].
Qed.

Theorem SP_rnode : forall n, SP (rn n).
Proof.
  (* the cases in the order of node_ind': text, raw, comment, output, assign, capture, increment, decrement, cycle,
     if, case, for, tablerow, break, continue, ifchanged, include, render *)
  induction n using node_ind'; apply SP_pointwise; intro st.
  - apply SPk_write.
  - apply SPk_write.
  - apply SP_ret.
  - cbn [rnode]. apply SPk_of_res; intro v. apply SPk_write.
  - cbn [rnode]. apply SPk_of_res; intro v. apply SPk_of_res; intro f'. apply SP_ret.
  - eapply SP_ext; [intros ? k; apply rnode_capture|].
    destruct (rl b st sink0) as [[[| |] s'] kc]; try apply SP_ret.
    destruct (decode (acc kc)); [|apply SP_ret]. apply SPk_of_res; intro f'. apply SP_ret.
  - cbn [rnode]. apply SPk_write_then. apply SPk_of_res; intro f'. apply SP_ret.
  - cbn [rnode]. apply SPk_write_then. apply SPk_of_res; intro f'. apply SP_ret.
  - cbn [rnode]. apply SPk_of_res; intros [i g]. cbn [fst snd]. destruct (nth_error vs i); [|apply SP_ret].
    apply SPk_of_res; intro v. apply SPk_write.
  - eapply SP_ext; [intros ? k; apply rnode_if|]. apply SPk_of_res; intro c0.
    destruct (Bool.eqb c0 m); apply SPk_of_SP; [apply SP_rlist_of|apply SP_ropt]; assumption.
  - eapply SP_ext; [intros ? k; apply rnode_case|]. apply SPk_of_res; intro tv.
    induction ws as [|[args body] ws IHw]; [apply SPk_of_SP, SP_ropt; assumption|].
    inversion H as [|? ? Hb Hr]; subst. eapply SP_ext; [intros ? k; apply case_arms_cons|].
    apply case_any_SP; [apply IHw; assumption|apply SP_rlist_of; exact Hb].
  - eapply SP_ext; [intros ? k; apply rnode_for|].
    do 3 (apply SPk_of_res; intro). destruct (iter_array _ _ _ rv); apply SPk_of_SP;
      [apply SP_ropt; assumption|]. apply SP_for, SP_rlist_of; assumption.
  - eapply SP_ext; [intros ? k; apply (rnode_tablerow O ps rec)|].
    apply SPk_of_res; intro arr. apply SPk_of_res; intro cs. do 2 (apply SPk_of_res; intro).
    destruct cs as [[|p|p]|]; try apply SP_ret; apply SPk_of_SP, SP_tablerow, SP_rlist_of; assumption.
  - apply SP_ret.
  - apply SP_ret.
  - eapply SP_ext; [intros ? k; apply (rnode_ifchanged O ps rec)|].
    destruct (rl b st sink0) as [[[| |] s'] kc]; try apply SP_ret.
    destruct (decode (acc kc)) as [t|]; [|apply SP_ret]. cbv zeta.
    destruct (match r_changed (get_regs s') with Some l => negb (str_eqb l t) | None => true end); [apply SPk_write|apply SP_ret].
  - cbn [rnode]. apply SPk_of_res; intro pv. destruct pv; try apply SP_ret.
    apply SPk_of_res; intro ar. apply SPk_of_res; intro body.
    apply SP_bind; [exact (SPk_of_SP _ _ (rec_SP body))|intros; eexists; reflexivity|intros; apply SP_ret].
  - cbn [rnode]. apply SPk_of_res; intro pv. destruct pv; try apply SP_ret.
    destruct f as [[rng x]|].
    + apply SPk_of_res; intros [|v0 vs0]; [apply SP_ret|]. apply SPk_of_res; intros _. apply SPk_of_res; intro body.
      apply SPk_of_SP, SP_render_for, rec_SP.
    + apply SPk_of_res; intro ar. apply SPk_of_res; intro body.
      apply SP_bind; [exact (SPk_of_SP _ _ (rec_SP body))|intros; eexists; reflexivity|intros; apply SP_ret].
Qed.
End SPAll.

Theorem SP_render O ps : forall d l, SP (render O ps d l).
Proof.
  induction d as [|d IH]; intro l; [apply SP_ret|].
  cbn [render]. apply SP_rlist_of. apply Forall_forall. intros n _. apply SP_rnode. exact IH.
Qed.

Theorem sink_prefix O ps depth t data n :
  match render_top O ps depth t data (mkSink [] None) with
  | (r_inf, _, k_inf) =>
      match render_top O ps depth t data (mkSink [] (Some n)) with
      | (r, _, k) =>
          (n < length (acc k_inf) -> r = OFail ESink /\ acc k = firstn n (acc k_inf)) /\
          (length (acc k_inf) <= n -> r = r_inf /\ acc k = acc k_inf)
      end
  end.
Proof.
  unfold render_top. pose proof (SP_render O ps (S depth) t (est_build data) [] n) as H. unfold mk in H.
  destruct (render O ps (S depth) t (est_build data) (mkSink [] None)) as [[oi si] ki].
  destruct H as [w [-> H]]. destruct (render O ps (S depth) t (est_build data) (mkSink [] (Some n))) as [[o s'] k'].
  simpl. destruct (Nat.leb (length w) n) eqn:L.
  - apply Nat.leb_le in L. destruct H as [-> [-> ->]]. simpl. split; [intro; lia|intros _; auto].
  - apply Nat.leb_gt in L. destruct H as [-> ->]. simpl. split; [intros _; auto|intro; lia].
Qed.
