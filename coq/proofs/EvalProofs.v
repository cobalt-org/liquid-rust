(* Loops (C05) and conditionals (C06) of model/Eval.v, and the unfolding equations of its loops and block
   constructs (for_loop_cons, rnode_for, rnode_capture, ...) that the walks over the evaluator rewrite with. *)
From LV Require Import Eval BaseLemmas.

Section ExprInd.
Variable P : expr -> Prop.
Hypothesis Hl : forall v, P (ELit v).
Hypothesis Hv : forall r idx, Forall P idx -> P (EVar r idx).
Fixpoint expr_ind' (e : expr) : P e :=
  match e with
  | ELit v => Hl v
  | EVar r idx => Hv r idx ((fix fl (l : list expr) : Forall P l :=
                               match l with [] => Forall_nil _ | x :: t => Forall_cons _ (expr_ind' x) (fl t) end) idx)
  end.
End ExprInd.

(* the window for any limit and any offset that is not negative (attr_usize makes a negative i64 z into z + 2^64) *)
Lemma window_gen (l : list value) lim off rv : (0 <= off)%Z ->
  iter_array l lim off rv =
  (if rv then @rev value else fun x => x)
    (match lim with Some x => firstn (Z.to_nat x) (skipn (Z.to_nat off) l) | None => skipn (Z.to_nat off) l end).
Proof.
  intro H. unfold iter_array.
  replace (Z.to_nat (Z.min off (Z.of_nat (length l)))) with (Nat.min (Z.to_nat off) (length l)) by lia.
  rewrite skipn_min. set (r := skipn (Z.to_nat off) l).
  replace (Z.to_nat match lim with Some x => Z.min x (Z.of_nat (length l) - Z.min off (Z.of_nat (length l))) | None => Z.of_nat (length l) - Z.min off (Z.of_nat (length l)) end)
    with (match lim with Some x => Nat.min (Z.to_nat x) (length r) | None => length r end)
    by (unfold r; rewrite skipn_length; destruct lim; lia).
  destruct lim; [rewrite <- firstn_firstn|]; rewrite firstn_all; destruct rv; reflexivity.
Qed.
Theorem window_spec (l : list value) (lim off : nat) (rv : bool) :
  iter_array l (Some (Z.of_nat lim)) (Z.of_nat off) rv =
  (if rv then @rev value else fun x => x) (firstn lim (skipn off l)).
Proof. rewrite window_gen, !Nat2Z.id by lia. reflexivity. Qed.
Theorem window_spec_nolimit (l : list value) (off : nat) (rv : bool) :
  iter_array l None (Z.of_nat off) rv = (if rv then @rev value else fun x => x) (skipn off l).
Proof. rewrite window_gen, Nat2Z.id by lia. reflexivity. Qed.
Lemma iter_array_incl l lim off rv : incl (iter_array l lim off rv) l.
Proof. unfold iter_array. intros x H. destruct rv; [apply in_rev in H|]; eapply skipn_incl, firstn_incl, H. Qed.
Corollary window_sublist l lim off rv x : In x (iter_array l (Some (Z.of_nat lim)) (Z.of_nat off) rv) -> In x l.
Proof. apply iter_array_incl. Qed.

Theorem loop_obj_truthful i n p : (0 <= i < n)%Z ->
  let o := match forloop_obj i n p with VObject kvs => kvs | _ => [] end in
  lookup k_index o = Some (vz (i + 1)) /\ lookup k_index0 o = Some (vz i) /\
  lookup k_rindex o = Some (vz (n - i)) /\ lookup k_rindex0 o = Some (vz (n - i - 1)) /\
  lookup k_firstk o = Some (vbool (i =? 0)%Z) /\ lookup k_lastk o = Some (vbool (i =? n - 1)%Z) /\
  lookup k_length o = Some (vz n) /\ lookup k_parentloop o = Some (match p with Some v => v | None => VNil end).
Proof. intros _. repeat split; reflexivity. Qed.
Theorem tablerow_obj_truthful i n cols : (0 <= i < n)%Z -> (0 < cols)%Z ->
  let col := (i mod cols)%Z in
  let o := match tablerow_obj i n col cols with VObject kvs => kvs | _ => [] end in
  lookup k_col0 o = Some (vz col) /\ lookup k_col o = Some (vz (col + 1)) /\
  lookup k_col_first o = Some (vbool (col =? 0)%Z) /\
  lookup k_col_last o = Some (vbool ((col =? cols - 1)%Z || (i =? n - 1)%Z)) /\
  lookup k_index o = Some (vz (i + 1)) /\ lookup k_length o = Some (vz n) /\ (0 <= col < cols)%Z.
Proof. intros _ Hc. repeat split; try reflexivity; apply Z.mod_pos_bound; exact Hc. Qed.

Section Loops.
Variable body : est -> sink -> out.
Variable x : str. Variable len : Z. Variable parent : option value.
Notation floop := (for_loop body x len parent).
Definition iter_frame (i : Z) (v : value) : obj := loop_frame k_forloop (forloop_obj i len parent) x v.
Definition clear_intr (s : est) : est := let g := get_regs s in set_regs (mkRegs None (r_cycles g) (r_changed g)) s.

Theorem for_loop_nil i s k : floop [] i s k = (ODone, s, k).
Proof. reflexivity. Qed.
Theorem for_loop_cons v vs i s k :
  floop (v :: vs) i s k =
  match body (push_plain (iter_frame i v) s) k with
  | (ODone, s', k') =>
      match r_intr (get_regs (pop_plain s')) with
      | Some Brk => (ODone, clear_intr (pop_plain s'), k')
      | _ => floop vs (i + 1)%Z (clear_intr (pop_plain s')) k'
      end
  | (o, s', k') => (o, pop_plain s', k')
  end.
Proof. reflexivity. Qed.

(* a loop that ran at least once and finished leaves no interrupt behind: `break` and `continue` never
   reach the code after the loop (in particular the enclosing loop) *)
Theorem for_loop_consumes_interrupt : forall vs i s k s' k', vs <> [] ->
  floop vs i s k = (ODone, s', k') -> interrupted s' = false.
Proof.
  induction vs as [|v vs IH]; intros i s k s' k' Hne H; [congruence|].
  rewrite for_loop_cons in H.
  destruct (body (push_plain (iter_frame i v) s) k) as [[o s1] k1]. destruct o; try discriminate.
  destruct (r_intr (get_regs (pop_plain s1))) as [[|]|];
    [inversion H; subst; reflexivity| |];
    (destruct vs as [|v' vs']; [inversion H; subst; reflexivity|eapply IH; [discriminate|exact H]]).
Qed.
End Loops.

Lemma write_str_cases s k t : let k' := fst (write k (encode t)) in
  write_str s k t = (ODone, s, k') \/ write_str s k t = (OFail ESink, s, k').
Proof. unfold write_str. destruct (write k (encode t)) as [k' [|]]; auto. Qed.

(* what a tablerow iteration writes before and after the cell's body *)
Definition tr_open (i cols : Z) : str :=
  (if (i mod cols =? 0)%Z then [60;116;114;32;99;108;97;115;115;61;34;114;111;119]%N ++ show_Z (i / cols + 1) ++ [34;62]%N else [])
  ++ [60;116;100;32;99;108;97;115;115;61;34;99;111;108]%N ++ show_Z (i mod cols + 1) ++ [34;62]%N.
Definition tr_close (i len cols : Z) : str :=
  [60;47;116;100;62]%N ++ (if ((i mod cols =? cols - 1)%Z || (i =? len - 1)%Z) then [60;47;116;114;62]%N else []).
Lemma tablerow_loop_cons body x len cols v vs i s k :
  tablerow_loop body x len cols (v :: vs) i s k =
  match write_str s k (tr_open i cols) with
  | (ODone, _, k1) =>
      match body (push_plain (loop_frame k_tablerow (tablerow_obj i len (i mod cols) cols) x v) s) k1 with
      | (ODone, s', k2) =>
          match write_str (pop_plain s') k2 (tr_close i len cols) with
          | (ODone, _, k3) => tablerow_loop body x len cols vs (i + 1)%Z (pop_plain s') k3
          | o => o
          end
      | (o, s', k2) => (o, pop_plain s', k2)
      end
  | o => o
  end.
Proof. reflexivity. Qed.
Lemma render_for_loop_cons body x len base v vs i s k :
  render_for_loop body x len base (v :: vs) i s k =
  of_res (base s) s k (fun b =>
    match body (push_sandbox (upsert x v (upsert k_forloop (forloop_obj i len None) b)) s) k with
    | (ODone, s', k') =>
        if match r_intr (get_regs s') with Some Brk => true | _ => false end
        then (ODone, pop_sandbox s', k') else render_for_loop body x len base vs (i + 1)%Z (pop_sandbox s') k'
    | (o, s', k') => (o, pop_sandbox s', k')
    end).
Proof. reflexivity. Qed.

Section Nodes.
Variable O : oracle. Variable ps : pstore. Variable rec : template -> est -> sink -> out.
Definition ropt_list (o : option (list node)) (s : est) (k : sink) : out :=
  match o with Some l => rlist O ps rec l s k | None => (ODone, s, k) end.
Theorem rnode_for x rng limit offset reversed body els s k :
  rnode O ps rec (NFor x rng limit offset reversed body els) s k =
  of_res (eval_range O rng s) s k (fun arr =>
  of_res (attr_usize O limit s) s k (fun lim =>
  of_res (attr_usize O offset s) s k (fun off =>
    let sel := iter_array arr lim (match off with Some z => z | None => 0%Z end) reversed in
    match sel with
    | [] => ropt_list els s k
    | _ => for_loop (rlist O ps rec body) x (Z.of_nat (length sel)) (try_get O [SStr k_forloop] (fr s)) sel 0%Z s k
    end))).
Proof. reflexivity. Qed.
Theorem rlist_cons n l s k :
  rlist O ps rec (n :: l) s k =
  match rnode O ps rec n s k with
  | (ODone, s', k') => if interrupted s' then (ODone, s', k') else rlist O ps rec l s' k'
  | o => o
  end.
Proof. cbn [rlist]. unfold seq_step. destruct (rnode O ps rec n s k) as [[[| |] ?] ?]; reflexivity. Qed.
Lemma rlist_single n s k : rlist O ps rec [n] s k = rnode O ps rec n s k.
Proof.
  rewrite rlist_cons. destruct (rnode O ps rec n s k) as [[[| |] s'] k']; try reflexivity.
  destruct (interrupted s'); reflexivity.
Qed.
Theorem break_stops_the_sequence l s k : exists s', rlist O ps rec (NBreak :: l) s k = (ODone, s', k) /\ r_intr (get_regs s') = Some Brk.
Proof. rewrite rlist_cons. cbn [rnode]. eexists. split; reflexivity. Qed.
Theorem continue_stops_the_sequence l s k : exists s', rlist O ps rec (NContinue :: l) s k = (ODone, s', k) /\ r_intr (get_regs s') = Some Cont.
Proof. rewrite rlist_cons. cbn [rnode]. eexists. split; reflexivity. Qed.
(* break ends only the innermost loop: a for block that iterated leaves no interrupt, so the rest of the
   sequence runs *)
Theorem after_a_for_block_the_sequence_goes_on x rng limit offset reversed body els rest s k arr lim off s' k' :
  eval_range O rng s = Ok arr -> attr_usize O limit s = Ok lim -> attr_usize O offset s = Ok off ->
  iter_array arr lim (match off with Some z => z | None => 0%Z end) reversed <> [] ->
  rnode O ps rec (NFor x rng limit offset reversed body els) s k = (ODone, s', k') ->
  rlist O ps rec (NFor x rng limit offset reversed body els :: rest) s k = rlist O ps rec rest s' k'.
Proof.
  intros Ha Hl Ho Hne H. rewrite rlist_cons, H.
  rewrite rnode_for, Ha, Hl, Ho in H. cbn [of_res] in H. cbv zeta in H.
  destruct (iter_array arr lim (match off with Some z => z | None => 0%Z end) reversed) as [|v sel] eqn:E; [congruence|].
  assert (I : interrupted s' = false) by (eapply for_loop_consumes_interrupt; [|exact H]; discriminate).
  rewrite I. reflexivity.
Qed.
Theorem rnode_if mode c t e s k :
  rnode O ps rec (NIf mode c t e) s k =
  of_res (eval_cond O c s) s k (fun b => if Bool.eqb b mode then rlist O ps rec t s k else ropt_list e s k).
Proof. reflexivity. Qed.
Theorem rnode_capture x body s k :
  rnode O ps rec (NCapture x body) s k =
  match rlist O ps rec body s sink0 with
  | (ODone, s', kc) =>
      match decode (acc kc) with
      | Some t => of_res (set_global x (VScalar (SStr t)) (fr s')) s' k (fun f' => (ODone, mkEst f' (rg s'), k))
      | None => (OPanicked 303%N, s', k)
      end
  | (o, s', _) => (o, s', k)
  end.
Proof. reflexivity. Qed.
Theorem rnode_tablerow x rng cols limit offset body s k :
  rnode O ps rec (NTableRow x rng cols limit offset body) s k =
  of_res (eval_range O rng s) s k (fun arr =>
  of_res (attr_usize O cols s) s k (fun cs =>
  of_res (attr_usize O limit s) s k (fun lim =>
  of_res (attr_usize O offset s) s k (fun off =>
    let sel := iter_array arr lim (match off with Some z => z | None => 0%Z end) false in
    let len := Z.of_nat (length sel) in
    match cs with
    | Some 0%Z => (OFail EInvalidArgument, s, k)
    | _ => tablerow_loop (rlist O ps rec body) x len (match cs with Some c => c | None => len end) sel 0%Z s k
    end)))).
Proof. reflexivity. Qed.
Theorem rnode_ifchanged body s k :
  rnode O ps rec (NIfChanged body) s k =
  match rlist O ps rec body s sink0 with
  | (ODone, s', kc) =>
      match decode (acc kc) with
      | None => (OPanicked 304%N, s', k)
      | Some t =>
          let g := get_regs s' in
          let changed := match r_changed g with Some l => negb (str_eqb l t) | None => true end in
          let s2 := set_regs (mkRegs (r_intr g) (r_cycles g) (Some t)) s' in
          if changed then write_str s2 k t else (ODone, s2, k)
      end
  | (o, s', _) => (o, s', k)
  end.
Proof. reflexivity. Qed.
(* the arms of a case block as the evaluator tries them: the values of one arm in turn, then the remaining arms *)
Definition when_any (tv : value) (body : list node) (rest : out) (s : est) (k : sink) : list expr -> out :=
  fix any l :=
    match l with
    | [] => rest
    | a :: l' => of_res (eval_expr O a s) s k (fun av => if value_eq av tv then rlist O ps rec body s k else any l')
    end.
Definition case_arms (tv : value) (els : option (list node)) (s : est) (k : sink) : list (list expr * list node) -> out :=
  fix cases ws :=
    match ws with
    | [] => ropt_list els s k
    | (args, body) :: ws' => when_any tv body (cases ws') s k args
    end.
Theorem rnode_case target whens els s k :
  rnode O ps rec (NCase target whens els) s k =
  of_res (eval_expr O target s) s k (fun tv => case_arms tv els s k whens).
Proof. reflexivity. Qed.
Lemma when_any_cons tv body rest s k a l : when_any tv body rest s k (a :: l) =
  of_res (eval_expr O a s) s k (fun av => if value_eq av tv then rlist O ps rec body s k else when_any tv body rest s k l).
Proof. reflexivity. Qed.
Lemma case_arms_cons tv els s k args body ws :
  case_arms tv els s k ((args, body) :: ws) = when_any tv body (case_arms tv els s k ws) s k args.
Proof. reflexivity. Qed.
End Nodes.

Theorem truthiness v : (forall st, v <> VState st) ->
  (truthy v = false <-> v = VNil \/ v = VScalar (SBool false)).
Proof.
  intro Hs. unfold truthy. destruct v as [s|l|l|st|]; simpl.
  - destruct s as [z|f|b|t|d|x]; simpl; try (split; [discriminate|intros [H|H]; discriminate]).
    destruct b; split; try discriminate; auto. intros [H|H]; discriminate.
  - split; [discriminate|intros [H|H]; discriminate].
  - split; [discriminate|intros [H|H]; discriminate].
  - exfalso. apply (Hs st). reflexivity.
  - split; auto.
Qed.
Example zero_empty_are_true :
  truthy (VScalar (SInt 0)) = true /\ truthy (VScalar (SStr [])) = true /\ truthy (VArray []) = true /\ truthy (VObject []) = true.
Proof. repeat split; reflexivity. Qed.

Section Cond.
Variable O : oracle. Variable ps : pstore. Variable rec : template -> est -> sink -> out.
Theorem bare_test e s : eval_cond O (CExists e) s =
  Ok (truthy (match try_eval_expr O e s with Some v => v | None => VNil end)).
Proof. reflexivity. Qed.
Theorem undefined_is_false e s : try_eval_expr O e s = None -> eval_cond O (CExists e) s = Ok false.
Proof. intro H. simpl. rewrite H. reflexivity. Qed.
Theorem ops_are_value_model a b :
  eval_cmp O OpEq a b = Ok (value_eq a b) /\ eval_cmp O OpNe a b = Ok (negb (value_eq a b)) /\
  eval_cmp O OpLt a b = Ok (v_lt a b) /\ eval_cmp O OpGt a b = Ok (v_gt a b) /\
  eval_cmp O OpLe a b = Ok (v_le a b) /\ eval_cmp O OpGe a b = Ok (v_ge a b).
Proof. repeat split; reflexivity. Qed.
Theorem contains_spec a b :
  eval_cmp O OpContains a b =
  match a with
  | VScalar _ => Ok (str_contains (to_kstr O a) (to_kstr O b))
  | VObject kvs => Ok (match b with VScalar _ => has_key (to_kstr O b) kvs | _ => false end)
  | VArray l => Ok (existsb (fun e => value_eq e b) l)
  | _ => Err EOther
  end.
Proof. reflexivity. Qed.
Theorem and_or_semantics a b c s x y z :
  eval_cond O a s = Ok x -> eval_cond O b s = Ok y -> eval_cond O c s = Ok z ->
  eval_cond O (COr a (CAnd b c)) s = Ok (x || (y && z)) /\
  eval_cond O (CAnd a b) s = Ok (x && y) /\ eval_cond O (COr a b) s = Ok (x || y).
Proof.
  intros Ha Hb Hc. simpl. rewrite Ha, Hb, Hc. simpl. destruct x, y, z; repeat split; reflexivity.
Qed.

(* if / elsif / else as the parser builds it: each elsif is an `if` alone in the else branch *)
Fixpoint mk_if (arms : list (cond * list node)) (els : option (list node)) : option (list node) :=
  match arms with
  | [] => els
  | (c, b) :: rest => Some [NIf true c b (mk_if rest els)]
  end.
Theorem if_first_true : forall arms els s k,
  Forall (fun cb => exists v, eval_cond O (fst cb) s = Ok v) arms ->
  ropt_list O ps rec (mk_if arms els) s k =
  match List.find (fun cb => match eval_cond O (fst cb) s with Ok true => true | _ => false end) arms with
  | Some (_, b) => rlist O ps rec b s k
  | None => ropt_list O ps rec els s k
  end.
Proof.
  induction arms as [|[c b] rest IH]; intros els s k H; [reflexivity|].
  inversion H as [|? ? [v Hv] Hr]; subst. simpl in Hv.
  cbn [mk_if ropt_list]. rewrite rlist_single, rnode_if. cbn [List.find fst]. rewrite Hv. cbn [of_res].
  destruct v; cbn [Bool.eqb]; [reflexivity|]. apply IH; assumption.
Qed.
Theorem if_error_propagates c t e s k cl : eval_cond O c s = Err cl ->
  rnode O ps rec (NIf true c t e) s k = (OFail cl, s, k).
Proof. intro H. rewrite rnode_if, H. reflexivity. Qed.
Theorem unless_swaps_branches c t e s k :
  rnode O ps rec (NIf false c t (Some e)) s k = rnode O ps rec (NIf true c e (Some t)) s k.
Proof. rewrite !rnode_if. destruct (eval_cond O c s) as [[|]| | |]; reflexivity. Qed.
Theorem unless_is_negation c t e s k v : eval_cond O c s = Ok v ->
  rnode O ps rec (NIf false c t (Some e)) s k = rnode O ps rec (NIf true c e (Some t)) s k.
Proof. intros _. apply unless_swaps_branches. Qed.

Definition arm_matches (tv : value) (s : est) (arm : list expr * list node) : bool :=
  existsb (fun a => match eval_expr O a s with Ok av => value_eq av tv | _ => false end) (fst arm).
Lemma case_any tv body (rest : out) s k : forall l, Forall (fun a => exists v, eval_expr O a s = Ok v) l ->
  when_any O ps rec tv body rest s k l =
  if existsb (fun a => match eval_expr O a s with Ok av => value_eq av tv | _ => false end) l
  then rlist O ps rec body s k else rest.
Proof.
  induction l as [|a l IH]; intro H; [reflexivity|]. inversion H as [|? ? [v Hv] Hl]; subst.
  rewrite when_any_cons. cbn [existsb]. rewrite Hv. cbn [of_res]. destruct (value_eq v tv); [reflexivity|]. cbn [orb]. apply IH; assumption.
Qed.
Theorem case_first_equal : forall whens target els s k tv, eval_expr O target s = Ok tv ->
  Forall (fun arm => Forall (fun a => exists v, eval_expr O a s = Ok v) (fst arm)) whens ->
  rnode O ps rec (NCase target whens els) s k =
  match List.find (arm_matches tv s) whens with
  | Some (_, b) => rlist O ps rec b s k
  | None => ropt_list O ps rec els s k
  end.
Proof.
  intros whens target els s k tv Ht H. rewrite rnode_case, Ht. cbn [of_res].
  induction whens as [|[args body] ws IH]; [reflexivity|]. inversion H as [|? ? Ha Hw]; subst. simpl in Ha.
  cbn [List.find]. unfold arm_matches at 1. cbn [fst].
  rewrite case_arms_cons, case_any by assumption.
  destruct (existsb _ args); [reflexivity|]. apply IH; assumption.
Qed.
End Cond.
