(* Decimal printing and parsing of integers round-trip.  Used for C15 (MathProofs: numeric strings behave like the
   numbers they spell), C07 (FindProofs, LitProofs: an integer literal denotes the value it prints as, and the
   printed numeral is one literal) and C17 (DateProofs: the numeric fields of a printed date read back). *)
From LV Require Import Base BaseLemmas.

Fixpoint ndig (fuel : nat) (n : N) : nat :=
  match fuel with
  | O => 0
  | S f => if (n / 10 =? 0)%N then 1 else S (ndig f (n / 10)%N)
  end.

Lemma is_digit_range c : is_digit c = true <-> (48 <= c <= 57)%N.
Proof. unfold is_digit. rewrite andb_true_iff, !N.leb_le. reflexivity. Qed.
Lemma is_digit_add d : (d < 10)%N -> is_digit (48 + d)%N = true.
Proof. intro D. apply is_digit_range. lia. Qed.
Lemma is_digit_48 n : is_digit (48 + n mod 10)%N = true.
Proof. apply is_digit_add, N.mod_lt. discriminate. Qed.

Lemma pow2_ge (f : nat) : (1 <= 2 ^ N.of_nat f)%N.
Proof. induction f as [|f IH]; [simpl; lia|]. rewrite Nat2N.inj_succ, N.pow_succ_r'. lia. Qed.

Lemma digits_S f n acc : digits_pos_fuel (S f) n acc =
  if (n / 10 =? 0)%N then (48 + n mod 10)%N :: acc else digits_pos_fuel f (n / 10)%N ((48 + n mod 10)%N :: acc).
Proof. reflexivity. Qed.
Lemma ndig_S f n : ndig (S f) n = if (n / 10 =? 0)%N then 1 else S (ndig f (n / 10)%N).
Proof. reflexivity. Qed.
Lemma digits_all f : forall n acc, forallb is_digit acc = true -> forallb is_digit (digits_pos_fuel (S f) n acc) = true.
Proof.
  induction f as [|f IH]; intros n acc Ha; rewrite digits_S.
  - destruct (n / 10 =? 0)%N; cbn [digits_pos_fuel forallb]; rewrite is_digit_48; exact Ha.
  - destruct (n / 10 =? 0)%N; [cbn [forallb]; rewrite is_digit_48; exact Ha|]. apply IH. cbn [forallb]. rewrite is_digit_48. exact Ha.
Qed.

(* Parsing what was printed in front of acc continues from the accumulator shifted by the number of
   digits printed.  One unit of fuel per binary digit of n is more than enough. *)
Lemma digits_parse f : forall n acc a, (n < 2 ^ N.of_nat f)%N ->
  parse_digits (digits_pos_fuel f n acc) a =
  parse_digits acc (a * 10 ^ Z.of_nat (ndig f n) + Z.of_N n)%Z.
Proof.
  induction f as [|f IH]; intros n acc a Hn.
  - cbn [digits_pos_fuel ndig]. f_equal. change (2 ^ N.of_nat 0)%N with 1%N in Hn. change (10 ^ Z.of_nat 0)%Z with 1%Z. lia.
  - rewrite digits_S, ndig_S. rewrite Nat2N.inj_succ, N.pow_succ_r' in Hn.
    destruct (N_div_mod_split n 10) as (q & d & -> & -> & E & D); [discriminate|].
    destruct (N.eqb_spec q 0) as [Q|Q].
    + cbn [parse_digits]. rewrite is_digit_add by exact D. f_equal. change (10 ^ Z.of_nat 1)%Z with 10%Z. lia.
    + rewrite IH by lia. cbn [parse_digits]. rewrite is_digit_add by exact D. f_equal.
      rewrite Nat2Z.inj_succ, Z.pow_succ_r by lia. lia.
Qed.

Lemma digits_head f : forall n acc, exists c t, digits_pos_fuel (S f) n acc = c :: t /\ is_digit c = true.
Proof.
  induction f as [|f IH]; intros n acc; rewrite digits_S.
  - destruct (n / 10 =? 0)%N; eexists; eexists; split; try reflexivity; apply is_digit_48.
  - destruct (n / 10 =? 0)%N; [eexists; eexists; split; [reflexivity|apply is_digit_48]|apply IH].
Qed.

Lemma show_N_parse n : parse_digits (show_N n) 0 = Some (Z.of_N n).
Proof.
  unfold show_N. rewrite digits_parse.
  - reflexivity.
  - destruct n as [|p]; [reflexivity|]. rewrite Nat2N.inj_succ, N2Nat.id. apply N.log2_spec. reflexivity.
Qed.
Lemma show_N_head n : exists c t, show_N n = c :: t /\ is_digit c = true.
Proof. apply digits_head. Qed.

Lemma parse_digits_app a : forall b acc, parse_digits (a ++ b) acc =
  match parse_digits a acc with Some z => parse_digits b z | None => None end.
Proof. induction a as [|c a IH]; intros b acc; cbn [app parse_digits]; [reflexivity|]. destruct (is_digit c); [apply IH|reflexivity]. Qed.
Lemma digits_len f : forall n acc k, (n < 10 ^ N.of_nat k)%N -> 1 <= k ->
  length (digits_pos_fuel (S f) n acc) <= k + length acc.
Proof.
  induction f as [|f IH]; intros n acc k Hn Hk; rewrite digits_S.
  - destruct (n / 10 =? 0)%N; cbn [length digits_pos_fuel]; lia.
  - destruct (N.eqb_spec (n / 10) 0) as [E|E]; [cbn [length]; lia|].
    destruct k as [|[|k]]; [lia|rewrite N.div_small in E by exact Hn; congruence|].
    rewrite (Nat2N.inj_succ (S k)), N.pow_succ_r' in Hn.
    specialize (IH (n / 10)%N ((48 + n mod 10)%N :: acc) (S k)). cbn [length] in IH.
    assert (n / 10 < 10 ^ N.of_nat (S k))%N by (apply N.div_lt_upper_bound; lia). lia.
Qed.
Lemma show_Z_nonneg v : (0 <= v)%Z -> show_Z v = show_N (Z.to_N v).
Proof. destruct v; [reflexivity|reflexivity|lia]. Qed.
Lemma show_Z_len v k : (0 <= v < 10 ^ Z.of_nat k)%Z -> 1 <= k -> length (show_Z v) <= k.
Proof.
  intros H Hk. rewrite show_Z_nonneg by lia. unfold show_N.
  rewrite (digits_len _ _ [] k); [cbn [length]; lia| |exact Hk].
  apply N2Z.inj_lt. rewrite Z2N.id, N2Z.inj_pow, nat_N_Z by lia. exact (proj2 H).
Qed.

(* parse_i64 after its sign test, which is a match on the numerals 45 and 43 *)
Definition go_i64 (neg : bool) (ds : str) : option Z :=
  match ds with
  | [] => None
  | _ => match parse_digits ds 0%Z with
         | Some z => let z' := if neg then (- z)%Z else z in if in_i64 z' then Some z' else None
         | None => None
         end
  end.
Lemma parse_i64_sign c t : parse_i64 (c :: t) =
  if N.eqb c 45 then go_i64 true t else if N.eqb c 43 then go_i64 false t else go_i64 false (c :: t).
Proof. destruct c as [|p]; [reflexivity|]. do 6 (destruct p as [p|p|]; try reflexivity). Qed.
Lemma parse_i64_unsigned (c : char) (t : str) : c <> 45%N -> c <> 43%N -> parse_i64 (c :: t) = go_i64 false (c :: t).
Proof. intros N1 N2. apply N.eqb_neq in N1, N2. rewrite parse_i64_sign, N1, N2. reflexivity. Qed.
Lemma is_digit_not_sign c : is_digit c = true -> c <> 45%N /\ c <> 43%N.
Proof. intros D%is_digit_range. lia. Qed.
Lemma go_i64_in_range neg ds z : go_i64 neg ds = Some z -> in_i64 z = true.
Proof.
  unfold go_i64. destruct ds as [|c ds]; [discriminate|].
  destruct (parse_digits (c :: ds) 0%Z) as [w|]; [|discriminate]. cbv zeta.
  destruct (in_i64 (if neg then (- w)%Z else w)) eqn:E; [|discriminate]. intros [= <-]. exact E.
Qed.

Lemma go_i64_show neg n : go_i64 neg (show_N n) =
  let z := if neg then (- Z.of_N n)%Z else Z.of_N n in if in_i64 z then Some z else None.
Proof. unfold go_i64. rewrite show_N_parse. destruct (show_N_head n) as (c & t & -> & _). reflexivity. Qed.

Theorem parse_show_Z z : in_i64 z = true -> parse_i64 (show_Z z) = Some z.
Proof.
  intro H. destruct z as [|p|p]; [reflexivity| |]; cbn [show_Z].
  - destruct (show_N_head (Npos p)) as (c & t & E & D). destruct (is_digit_not_sign c D) as [N1 N2].
    rewrite E, (parse_i64_unsigned c t N1 N2), <- E, go_i64_show. cbv zeta. cbn [Z.of_N]. rewrite H. reflexivity.
  - rewrite parse_i64_sign, N.eqb_refl, go_i64_show. cbv zeta. cbn [Z.of_N Z.opp]. rewrite H. reflexivity.
Qed.
