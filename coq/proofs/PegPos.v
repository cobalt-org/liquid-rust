(* PegPos.v — the position an evaluation reports is the number of characters consumed: for every grammar,
   expression, mode and text, p' + |rest| = pos + |text|. *)
From LV Require Import Peg TreeProofs.

Theorem ev_pos g ws f at_ la e s pos s' p' t :
  ev g ws f at_ la e s pos = Some (Some (s', p', t)) -> p' + length s' = pos + length s.
Proof. intro H. exact (proj2 (ev_span _ _ _ _ _ _ _ _ _ _ _ H)). Qed.
Corollary parse_end_is_length g ws f start s p ts : parse g ws f start s = Some (Some ([], p, ts)) -> p = length s.
Proof. unfold parse. intro H. apply ev_pos in H. cbn [length] in H. lia. Qed.
