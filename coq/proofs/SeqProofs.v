(* Proofs about model/Filters_seq.v — the string part (property C13). *)
From LV Require Import Filters_seq BaseLemmas.

Lemma split_go_nonempty p s cur k : split_go p s cur k <> [].
Proof.
  revert cur k; induction s as [|c t IH]; intros cur k; simpl; [discriminate|].
  destruct k; [destruct (prefixb p (c :: t)); [discriminate|apply IH]|apply IH].
Qed.
Lemma join_cons sep x l : l <> [] -> join_str sep (x :: l) = x ++ sep ++ join_str sep l.
Proof. destruct l; [congruence|reflexivity]. Qed.

(* split_go and replace_go are the same scan for leftmost non-overlapping matches: joining the
   pieces with b is replacing each match by b *)
Lemma replace_go_split a b : forall s cur k, join_str b (split_go a s cur k) = rev cur ++ replace_go a b s k.
Proof.
  induction s as [|c t IH]; intros cur k; [simpl; rewrite app_nil_r; reflexivity|].
  destruct k as [|k]; cbn [split_go replace_go]; [|apply IH].
  destruct (prefixb a (c :: t)).
  - rewrite join_cons by apply split_go_nonempty. rewrite IH. reflexivity.
  - rewrite IH. simpl. rewrite <- app_assoc. reflexivity.
Qed.
Theorem replace_via_split a b s : a <> [] -> replace_str a b s = join_str b (split_str a s).
Proof. intro H. destruct a; [congruence|]. symmetry. apply replace_go_split. Qed.

Lemma replace_go_same a : a <> [] -> forall s k, replace_go a a s k = skipn k s.
Proof.
  intro Ha. induction s as [|c t IH]; intros [|k]; try reflexivity; cbn [replace_go skipn]; [|apply IH].
  destruct (prefixb a (c :: t)) eqn:E; [|rewrite IH; reflexivity].
  rewrite IH. destruct a as [|x a]; [congruence|]. pose proof (prefixb_split _ _ E) as F.
  cbn [length Nat.sub skipn] in *. rewrite Nat.sub_0_r. symmetry. exact F.
Qed.
Theorem split_join_id sep s : sep <> [] -> join_str sep (split_str sep s) = s.
Proof. intro H. rewrite <- replace_via_split by exact H. destruct sep; [congruence|]. apply replace_go_same, H. Qed.

Lemma trim_start_nil_iff s : trim_start s = [] <-> forallb is_whitespace s = true.
Proof.
  induction s as [|c t IH]; cbn [trim_start forallb]; [tauto|].
  destruct (is_whitespace c); cbn [andb]; [exact IH|]. split; discriminate.
Qed.
Lemma trim_start_app a b : trim_start (a ++ b) = match trim_start a with [] => trim_start b | x => x ++ b end.
Proof.
  induction a as [|c a IH]; cbn [trim_start app]; [reflexivity|]. destruct (is_whitespace c); [exact IH|reflexivity].
Qed.
Lemma trim_end_cons c t : trim_end (c :: t) =
  match trim_end t with [] => if is_whitespace c then [] else [c] | x => c :: x end.
Proof.
  unfold trim_end. cbn [rev]. rewrite trim_start_app.
  destruct (trim_start (rev t)) as [|y l] eqn:E.
  - cbn [trim_start]. destruct (is_whitespace c); reflexivity.
  - rewrite rev_app_distr. destruct (rev (y :: l)) eqn:R; [|reflexivity]. apply rev_nil_inv in R. discriminate.
Qed.
Lemma trim_end_nil_iff s : trim_end s = [] <-> forallb is_whitespace s = true.
Proof.
  unfold trim_end. transitivity (trim_start (rev s) = []).
  - split; [apply rev_nil_inv|intros ->; reflexivity].
  - rewrite trim_start_nil_iff, !forallb_forall. split; intros H x Hx; apply H, in_rev; [rewrite rev_involutive|]; exact Hx.
Qed.
Theorem strip_is_lstrip_rstrip s : trim s = trim_start (trim_end s).
Proof.
  unfold trim. induction s as [|c t IH]; [reflexivity|].
  rewrite trim_end_cons. cbn [trim_start]. destruct (is_whitespace c) eqn:W.
  - destruct (trim_end t) as [|y l] eqn:E.
    + apply trim_end_nil_iff, trim_start_nil_iff in E. rewrite E. reflexivity.
    + rewrite IH. cbn [trim_start]. rewrite W. reflexivity.
  - rewrite trim_end_cons, W. destruct (trim_end t); cbn [trim_start]; rewrite W; reflexivity.
Qed.
Theorem lstrip_suffix s : exists w, s = w ++ trim_start s /\ forallb is_whitespace w = true /\
  (match trim_start s with c :: _ => is_whitespace c = false | [] => True end).
Proof.
  induction s as [|c t IHs]; [exists nil; simpl; auto|]. destruct IHs as [w [E [W N]]]. simpl. destruct (is_whitespace c) eqn:H.
  - exists (c :: w). simpl. rewrite H, W. split; [f_equal; exact E|auto].
  - exists nil. simpl. auto.
Qed.

Lemma sat_add_gt n a b : (0 <= n)%Z -> (n < sat_add a b)%Z -> (n < a + b)%Z.
Proof.
  unfold sat_add, i64_min. intros Hn H.
  destruct (Z.ltb_spec i64_max (a + b)); [|destruct (Z.ltb_spec (a + b) (- 2 ^ 63))]; lia.
Qed.

Section Slice.
Context {A : Type}.
(* the piece, in the terms of the documentation: offsets count from the end when negative, and an
   offset beyond either end gives nothing *)
Lemma slice_list_eq off len (l : list A) : (1 <= len)%Z ->
  let n := Z.of_nat (length l) in
  slice_list off len l =
    if (n <? off)%Z then []
    else if (0 <=? off)%Z then firstn (Z.to_nat len) (skipn (Z.to_nat off) l)
    else if (- n <=? off)%Z then firstn (Z.to_nat len) (skipn (Z.to_nat (n + off)) l)
    else [].
Proof.
  intros Hl n. unfold slice_list. fold n.
  assert (Hn : (0 <= n)%Z) by (unfold n; lia).
  (* capping the length at what is left after the offset changes nothing *)
  assert (cap : forall o, (0 <= o <= n)%Z ->
     firstn (Z.to_nat (if (n <? sat_add o len)%Z then (n - o)%Z else len)) (skipn (Z.to_nat o) l) =
     firstn (Z.to_nat len) (skipn (Z.to_nat o) l)).
  { intros o Ho. destruct (Z.ltb_spec n (sat_add o len)) as [H|H]; [|reflexivity]. apply sat_add_gt in H; [|exact Hn].
    assert (length (skipn (Z.to_nat o) l) = Z.to_nat (n - o)) by (rewrite skipn_length; unfold n; lia).
    rewrite !firstn_all2 by lia. reflexivity. }
  destruct (Z.ltb_spec n off) as [H1|H1].
  - rewrite Z.min_r by lia. do 2 (destruct (Z.ltb_spec n 0); [lia|]).
    rewrite cap by lia. rewrite skipn_all2 by (unfold n; lia). apply firstn_nil.
  - rewrite Z.min_l by lia. destruct (Z.leb_spec 0 off) as [H2|H2].
    + do 2 (destruct (Z.ltb_spec off 0); [lia|]). apply cap; lia.
    + destruct (Z.ltb_spec off 0); [|lia]. destruct (Z.leb_spec (- n) off) as [H3|H3].
      * destruct (Z.ltb_spec (off + n) 0); [lia|]. rewrite (Z.add_comm n off). apply cap; lia.
      * destruct (Z.ltb_spec (off + n) 0); [reflexivity|lia].
Qed.
Theorem slice_contiguous off len (l : list A) : (1 <= len)%Z ->
  exists pre post, l = pre ++ slice_list off len l ++ post /\ (Z.of_nat (length (slice_list off len l)) <= len)%Z.
Proof.
  intro Hl. rewrite (slice_list_eq off len l Hl).
  assert (P : forall o, l = firstn o l ++ firstn (Z.to_nat len) (skipn o l) ++ skipn (Z.to_nat len) (skipn o l) /\
                        (Z.of_nat (length (firstn (Z.to_nat len) (skipn o l))) <= len)%Z).
  { intro o. split; [rewrite !firstn_skipn; reflexivity|]. pose proof (firstn_le_length (Z.to_nat len) (skipn o l)). lia. }
  assert (E : l = [] ++ [] ++ l /\ (Z.of_nat (@length A []) <= len)%Z) by (split; [reflexivity|simpl; lia]).
  destruct (_ <? off)%Z; [exists [], l; exact E|].
  destruct (0 <=? off)%Z; [eexists; eexists; apply P|].
  destruct (_ <=? off)%Z; [eexists; eexists; apply P|exists [], l; exact E].
Qed.
Theorem slice_spec off len (l : list A) : (1 <= len)%Z -> (len <= i64_max)%Z ->
  let n := Z.of_nat (length l) in
  slice_list off len l =
    if (n <? off)%Z then []
    else if (0 <=? off)%Z then firstn (Z.to_nat len) (skipn (Z.to_nat off) l)
    else if (- n <=? off)%Z then firstn (Z.to_nat len) (skipn (Z.to_nat (n + off)) l)
    else [].
Proof. intros Hl _. apply slice_list_eq, Hl. Qed.
End Slice.

Section F.
Variable O : oracle.
Notation sf := (seq_filter O).
Definition vint (z : Z) := VScalar (SInt z).

Theorem size_counts_chars s : sf QSize (sstr s) [] = Ok (vint (Z.of_nat (length s))).
Proof. reflexivity. Qed.
Theorem append_spec s a : sf QAppend (sstr s) [sstr a] = Ok (sstr (s ++ a)).
Proof. reflexivity. Qed.
Theorem prepend_spec s a : sf QPrepend (sstr s) [sstr a] = Ok (sstr (a ++ s)).
Proof. reflexivity. Qed.
Theorem remove_is_replace_nil s a : sf QRemove (sstr s) [sstr a] = sf QReplace (sstr s) [sstr a; sstr []].
Proof. reflexivity. Qed.
Theorem replace_filter_via_split s a b : a <> [] ->
  sf QReplace (sstr s) [sstr a; sstr b] = Ok (sstr (join_str b (split_str a s))).
Proof. intro H. simpl. rewrite replace_via_split by exact H. reflexivity. Qed.
Theorem split_join_filters s sep : sep <> [] -> s <> [] ->
  eval_chain O (sstr s) [(QSplit, [sstr sep]); (QJoin, [sstr sep])] = Ok (sstr s).
Proof.
  intros Hs Hn. transitivity (Ok (sstr (join_str sep (map (to_kstr O) (map sstr (split_str sep s)))))).
  - destruct s; [congruence|reflexivity].
  - rewrite map_map. change (fun x : str => to_kstr O (sstr x)) with (fun x : str => x).
    rewrite map_id, split_join_id by exact Hs. reflexivity.
Qed.
Theorem strip_filters s : sf QStrip (sstr s) [] = Ok (sstr (trim_start (trim_end s))) /\
  eval_chain O (sstr s) [(QRstrip, []); (QLstrip, [])] = sf QStrip (sstr s) [].
Proof. split; simpl; rewrite strip_is_lstrip_rstrip; reflexivity. Qed.
Theorem replace_first_spec s a b : sf QReplaceFirst (sstr s) [sstr a; sstr b] =
  Ok (sstr (match find_first a s [] with Some (x, y) => x ++ b ++ y | None => s end)).
Proof. reflexivity. Qed.
Lemma replace_char_is_replace x b s : flat_map (fun c => if N.eqb c x then b else [c]) s = replace_str [x] b s.
Proof.
  unfold replace_str. induction s as [|c t IH]; [reflexivity|].
  cbn [flat_map replace_go prefixb length Nat.sub]. rewrite IH, andb_true_r, (N.eqb_sym x c).
  destruct (N.eqb c x); reflexivity.
Qed.
(* newline_to_br: every line feed becomes "<br />" followed by that line feed; equivalently the lines joined by "<br />\n" *)
Theorem newline_to_br_spec s :
  sf QNewlineToBr (sstr s) [] = Ok (sstr (replace_str [10%N] k_br s)) /\
  replace_str [10%N] k_br s = join_str k_br (split_str [10%N] s).
Proof.
  split; [rewrite <- replace_char_is_replace; reflexivity | apply replace_via_split; discriminate].
Qed.
Theorem strip_newlines_spec s : sf QStripNewlines (sstr s) [] = Ok (sstr (filter (fun c => negb (N.eqb c 10 || N.eqb c 13)) s)).
Proof. reflexivity. Qed.
Theorem case_filters_map_the_oracle s :
  sf QUpcase (sstr s) [] = Ok (sstr (flat_map (upper_c O) s)) /\ sf QDowncase (sstr s) [] = Ok (sstr (flat_map (lower_c O) s)) /\
  sf QCapitalize (sstr s) [] = Ok (sstr (match s with [] => [] | c :: t => upper_c O c ++ t end)).
Proof. repeat split; reflexivity. Qed.
Theorem first_last_char s : sf QFirst (sstr s) [] = Ok (sstr (firstn 1 s)) /\
  sf QLast (sstr s) [] = Ok (sstr (match rev s with c :: _ => [c] | [] => [] end)).
Proof. split; reflexivity. Qed.
Theorem default_spec v d : sf QDefault v [d] = Ok (if query_state v DefaultValue then d else v).
Proof. reflexivity. Qed.

Lemma slice_filter_eq input off len : sf QSlice input [vint off; vint len] =
  if (len <? 1)%Z then Err EInvalidArgument
  else match input with
       | VArray l => Ok (VArray (slice_list off len l))
       | _ => Ok (sstr (slice_list off len (to_kstr O input)))
       end.
Proof. reflexivity. Qed.
Theorem slice_filter_contiguous s off len : (1 <= len)%Z ->
  exists pre piece post, sf QSlice (sstr s) [vint off; vint len] = Ok (sstr piece) /\ s = pre ++ piece ++ post /\
                         (Z.of_nat (length piece) <= len)%Z.
Proof.
  intro H. destruct (slice_contiguous off len s H) as [pre [post [E L]]].
  exists pre, (slice_list off len s), post. split; [|split; assumption].
  rewrite slice_filter_eq. destruct (Z.ltb_spec len 1); [lia|reflexivity].
Qed.
Theorem slice_nonpositive_length_is_error s off len : (len < 1)%Z -> sf QSlice (sstr s) [vint off; vint len] = Err EInvalidArgument.
Proof. intro H. rewrite slice_filter_eq. destruct (Z.ltb_spec len 1); [reflexivity|lia]. Qed.

Theorem truncate_spec s n e : (0 <= n)%Z ->
  sf QTruncate (sstr s) [vint n; sstr e] =
    if (n <? Z.of_nat (length s))%Z then Ok (sstr (concat (firstn (Z.to_nat n - length e) (graphemes O s)) ++ e))
    else Ok (sstr s).
Proof. intro H. unfold seq_filter. cbn. destruct (Z.ltb_spec n 0); [lia|reflexivity]. Qed.
Theorem truncate_bound s n e : (0 <= n)%Z -> graphemes O s = map (fun c => [c]) s ->
  exists r, sf QTruncate (sstr s) [vint n; sstr e] = Ok (sstr r) /\ length r <= Nat.max (Z.to_nat n) (length e) \/
            (exists r, sf QTruncate (sstr s) [vint n; sstr e] = Ok (sstr r) /\ r = s /\ (Z.of_nat (length s) <= n)%Z).
Proof.
  intros Hn Hg. rewrite truncate_spec by exact Hn. destruct (Z.ltb_spec n (Z.of_nat (length s))) as [H|H].
  - eexists. left. split; [reflexivity|]. rewrite Hg, app_length.
    assert (G : forall (l : str) k, length (concat (firstn k (map (fun c => [c]) l))) <= k).
    { induction l as [|c t IH]; intros [|k]; simpl; try lia. specialize (IH k). lia. }
    specialize (G s (Z.to_nat n - length e)).
    unfold str, char in *. destruct (Nat.max_spec (Z.to_nat n) (length e)) as [[? ->]|[? ->]]; lia.
  - exists s. right. exists s. auto.
Qed.
Theorem truncatewords_spec s n e : (0 <= n)%Z ->
  sf QTruncateWords (sstr s) [vint n; sstr e] =
    let wl := split_str [32%N] s in
    if (n <? Z.of_nat (length wl))%Z then Ok (sstr (join_str [32%N] (firstn (Z.to_nat n) wl) ++ e)) else Ok (sstr s).
Proof. intro H. unfold seq_filter. cbn. destruct (Z.ltb_spec n 0); [lia|reflexivity]. Qed.

Theorem chain_is_fold v fs gs : eval_chain O v (fs ++ gs) = bind (eval_chain O v fs) (fun r => eval_chain O r gs).
Proof.
  revert v; induction fs as [|[f a] fs IH]; intro v; [reflexivity|]. simpl.
  destruct (seq_filter O f v a); simpl; try reflexivity. apply IH.
Qed.
End F.
