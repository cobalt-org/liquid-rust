(* Proofs about model/Filters_seq.v — the array part (property C14). *)
From Coq Require Import Permutation Sorted.
From LV Require Import Filters_seq.

(* insertion sort under any comparator: the sort filter's, and the one of keys under which value_cmp
   sorts an object's entries (sort_kvs, see OrderLemmas) *)
Section Sort.
Context {A : Type} (cmp : A -> A -> comparison).
Notation ins := (insert_sorted cmp).
Notation ssort := (stable_sort cmp).
Notation le := (fun a b => leq cmp a b = true).

Lemma insert_cons x h t : ins x (h :: t) = if leq cmp x h then x :: h :: t else h :: ins x t.
Proof. unfold leq. simpl. destruct (cmp x h); reflexivity. Qed.
Lemma insert_perm x l : Permutation (ins x l) (x :: l).
Proof.
  induction l as [|h t IH]; [reflexivity|]. rewrite insert_cons. destruct (leq cmp x h); [reflexivity|].
  rewrite IH. apply perm_swap.
Qed.
Theorem sort_perm l : Permutation (ssort l) l.
Proof. induction l as [|h t IH]; simpl; [reflexivity|]. rewrite insert_perm. constructor. exact IH. Qed.

Lemma sorted_perm_eq l l' : (forall a b, In a l -> In b l -> le a b -> le b a -> a = b) ->
  StronglySorted le l -> StronglySorted le l' -> Permutation l l' -> l = l'.
Proof.
  revert l'; induction l as [|a l IH]; intros l' D Hs Hs' Hp.
  - apply Permutation_nil in Hp. subst; reflexivity.
  - destruct l' as [|b l']; [apply Permutation_sym, Permutation_nil in Hp; discriminate|].
    inversion Hs as [|? ? Hsl Ha]; inversion Hs' as [|? ? Hsl' Hb]; subst.
    rewrite Forall_forall in Ha, Hb.
    assert (a = b).
    { assert (Hina : In a (b :: l')) by (apply (Permutation_in _ Hp); left; reflexivity).
      assert (Hinb : In b (a :: l)) by (apply (Permutation_in _ (Permutation_sym Hp)); left; reflexivity).
      destruct Hina as [->|Hina]; [reflexivity|]. destruct Hinb as [->|Hinb]; [reflexivity|].
      (* each heads its own list, so each is below the other *)
      apply D; simpl; auto. }
    subst b. f_equal. apply IH; try assumption; [|apply (Permutation_cons_inv Hp)].
    intros x y Hx Hy. apply D; right; assumption.
Qed.

(* what slice::sort_by requires of the comparator, on the elements being sorted *)
Record total_preorder (P : A -> Prop) : Prop := {
  tp_anti : forall a b, P a -> P b -> cmp b a = CompOpp (cmp a b);
  tp_trans : forall a b c, P a -> P b -> P c -> le a b -> le b c -> le a c;
}.
Lemma tp_total P : total_preorder P -> forall a b, P a -> P b -> le a b \/ le b a.
Proof.
  intros T a b Pa Pb. unfold leq. rewrite (tp_anti P T a b Pa Pb). destruct (cmp a b); simpl; auto.
Qed.
Lemma tp_refl P : total_preorder P -> forall a, P a -> cmp a a = Eq.
Proof. intros T a Pa. pose proof (tp_anti P T a a Pa Pa) as H. destruct (cmp a a); simpl in H; congruence. Qed.

Lemma total_preorder_on_sound l : total_preorder_on cmp l = true -> total_preorder (fun x => In x l).
Proof.
  unfold total_preorder_on. intro H. rewrite forallb_forall in H. split.
  - intros a b Ha Hb. specialize (H a Ha). rewrite forallb_forall in H. specialize (H b Hb).
    apply andb_prop in H as [H _]. destruct (cmp a b), (cmp b a); simpl; try reflexivity; discriminate.
  - intros a b c Ha Hb Hc Hab Hbc. specialize (H a Ha). rewrite forallb_forall in H. specialize (H b Hb).
    apply andb_prop in H as [_ H]. rewrite forallb_forall in H. specialize (H c Hc).
    rewrite Hab, Hbc in H. simpl in H. exact H.
Qed.

Section WithOrder.
Variable P : A -> Prop.
Hypothesis T : total_preorder P.

Lemma insert_sorted_sorted x l : P x -> Forall P l -> StronglySorted le l -> StronglySorted le (ins x l).
Proof.
  intros Px Pl. induction 1 as [|h t Hs IH Hall]; [repeat constructor|].
  inversion Pl as [|? ? Ph Pt]; subst. rewrite Forall_forall in *.
  rewrite insert_cons. destruct (leq cmp x h) eqn:E.
  - constructor; [constructor; [assumption|apply Forall_forall, Hall]|]. constructor; [exact E|].
    apply Forall_forall. intros y Hy. apply (tp_trans P T x h y); auto.
  - constructor; [apply IH, Pt|].
    apply Forall_forall. intros y Hy. apply (Permutation_in _ (insert_perm x t)) in Hy. destruct Hy as [<-|Hy]; [|auto].
    destruct (tp_total P T x h Px Ph) as [L|L]; [congruence|exact L].
Qed.
Lemma sort_forall l : Forall P l -> Forall P (ssort l).
Proof. intro H. rewrite Forall_forall in *. intros x Hx. apply H. eapply Permutation_in; [apply sort_perm|exact Hx]. Qed.
Theorem sort_sorted l : Forall P l -> StronglySorted le (ssort l).
Proof.
  induction l as [|h t IH]; intro H; simpl; [constructor|]. inversion H; subst.
  apply insert_sorted_sorted; auto using sort_forall.
Qed.
Lemma sort_id_on_sorted l : StronglySorted le l -> ssort l = l.
Proof.
  induction 1 as [|h t Hs IH Hall]; [reflexivity|]. simpl. rewrite IH.
  destruct t as [|k t']; [reflexivity|]. inversion Hall as [|? ? Hk _]; subst. rewrite insert_cons, Hk. reflexivity.
Qed.
Theorem sort_idempotent l : Forall P l -> ssort (ssort l) = ssort l.
Proof. intro H. apply sort_id_on_sorted, sort_sorted, H. Qed.

Definition equiv_to (x y : A) : bool := match cmp y x with Eq => true | _ => false end.
Lemma insert_filter x y l : P x -> P y -> Forall P l ->
  filter (equiv_to x) (ins y l) = filter (equiv_to x) (y :: l).
Proof.
  intros Px Py. induction 1 as [|h t Ph Pt IH]; [reflexivity|].
  rewrite insert_cons. destruct (leq cmp y h) eqn:E; [reflexivity|].
  (* y > h: y moves behind h; if both were equivalent to x they would be equivalent to each other *)
  cbn [filter]. rewrite IH. cbn [filter].
  destruct (equiv_to x h) eqn:Eh, (equiv_to x y) eqn:Ey; try reflexivity.
  exfalso. unfold equiv_to in Eh, Ey.
  destruct (cmp h x) eqn:Ehx; try discriminate. destruct (cmp y x) eqn:Eyx; try discriminate.
  assert (L1 : le y x) by (unfold leq; rewrite Eyx; reflexivity).
  assert (L2 : le x h) by (unfold leq; rewrite (tp_anti P T h x Ph Px), Ehx; reflexivity).
  pose proof (tp_trans P T y x h Py Px Ph L1 L2). congruence.
Qed.
Theorem sort_stable x l : P x -> Forall P l -> filter (equiv_to x) (ssort l) = filter (equiv_to x) l.
Proof.
  intros Px. induction l as [|h t IH]; intro H; [reflexivity|]. inversion H; subst. simpl stable_sort.
  rewrite insert_filter; auto using sort_forall. cbn [filter]. rewrite IH by assumption. reflexivity.
Qed.
End WithOrder.

Theorem sort_by_spec l : total_preorder_on cmp l = true ->
  sort_by cmp l = Ok (ssort l) /\ Permutation (ssort l) l /\ StronglySorted le (ssort l) /\ ssort (ssort l) = ssort l.
Proof.
  intro H. pose proof (total_preorder_on_sound l H) as T.
  assert (F : Forall (fun x => In x l) l) by (apply Forall_forall; auto).
  unfold sort_by. rewrite H. repeat split; [apply sort_perm|apply (sort_sorted _ T); exact F|apply (sort_idempotent _ T); exact F].
Qed.
(* otherwise the call is outside what slice::sort_by specifies: the known finding `sort-incomparable` *)
Theorem sort_by_unspecified_iff l : (exists s, sort_by cmp l = Panic s) <-> total_preorder_on cmp l = false.
Proof.
  unfold sort_by. destruct (total_preorder_on cmp l).
  - split; [intros [s H]|intro H]; discriminate.
  - split; [reflexivity|]. intros _. eexists. reflexivity.
Qed.
End Sort.

Lemma nil_safe_nil_last b : is_nil b = false -> cmp_or_eq (nil_safe_compare VNil b) = Gt /\ cmp_or_eq (nil_safe_compare b VNil) = Lt.
Proof. intro H. unfold nil_safe_compare. simpl. rewrite H. simpl. destruct b; simpl in *; try discriminate; auto. Qed.

Lemma uniq_go_subseq seen l : forall x, In x (uniq_go seen l) -> In x l.
Proof.
  revert seen; induction l as [|h t IH]; intros seen x H; simpl in *; [exact H|].
  destruct (existsb (fun v => value_eq v h) seen); [right; eauto|]. destruct H as [->|H]; [left; reflexivity|right; eauto].
Qed.
Theorem uniq_kept_are_new l : forall seen,
  forall pre x post, uniq_go seen l = pre ++ x :: post ->
  existsb (fun v => value_eq v x) (seen ++ pre) = false.
Proof.
  induction l as [|h t IH]; intros seen pre x post E; simpl in E; [destruct pre; discriminate|].
  destruct (existsb (fun v => value_eq v h) seen) eqn:S; [eapply IH; exact E|].
  destruct pre as [|p pre']; simpl in E; inversion E; subst.
  - rewrite app_nil_r. exact S.
  - specialize (IH (seen ++ [p]) pre' x post H1). rewrite <- app_assoc in IH. exact IH.
Qed.
Theorem uniq_dropped_have_witness l : forall seen x, In x l ->
  existsb (fun v => value_eq v x) (seen ++ uniq_go seen l) = true \/ In x (uniq_go seen l).
Proof.
  induction l as [|h t IH]; intros seen x Hin; [destruct Hin|]. simpl.
  destruct (existsb (fun v => value_eq v h) seen) eqn:S.
  - destruct Hin as [->|Hin]; [left; rewrite existsb_app, S; reflexivity|apply IH; exact Hin].
  - destruct Hin as [->|Hin]; [right; left; reflexivity|].
    destruct (IH (seen ++ [h]) x Hin) as [H|H]; [left; rewrite <- app_assoc in H; exact H|right; right; exact H].
Qed.

Section F.
Variable O : oracle.
Notation sf := (seq_filter O).
Theorem reverse_spec l : sf QReverse (VArray l) [] = Ok (VArray (rev l)) /\ Permutation (rev l) l /\ rev (rev l) = l.
Proof. repeat split; [apply Permutation_sym, Permutation_rev|apply rev_involutive]. Qed.
Theorem compact_spec l : sf QCompact (VArray l) [] = Ok (VArray (filter (fun v => negb (is_nil v)) l)).
Proof. reflexivity. Qed.
Theorem concat_spec l m : sf QConcat (VArray l) [VArray m] = Ok (VArray (l ++ m)) /\ length (l ++ m) = length l + length m.
Proof. split; [reflexivity|apply app_length]. Qed.
Theorem map_spec l p : sf QMap (VArray l) [sstr p] =
  Ok (VArray (flat_map (fun v => match v with VObject kvs => match lookup p kvs with Some x => [x] | None => [] end | _ => [] end) l)).
Proof. reflexivity. Qed.
Theorem where_spec l p t : forallb is_object l = true -> sf QWhere (VArray l) [sstr p; t] =
  Ok (VArray (filter (fun v => match v with VObject kvs => match lookup p kvs with Some x => value_eq t x | None => false end | _ => false end) l)).
Proof. intro H. unfold seq_filter. cbn. rewrite H. reflexivity. Qed.
Theorem where_truthy_spec l p : forallb is_object l = true -> sf QWhere (VArray l) [sstr p] =
  Ok (VArray (filter (fun v => match v with VObject kvs => match lookup p kvs with Some x => truthy x | None => false end | _ => false end) l)).
Proof. intro H. unfold seq_filter. cbn. rewrite H. reflexivity. Qed.
Theorem uniq_spec l : sf QUniq (VArray l) [] = Ok (VArray (uniq_go [] l)).
Proof. reflexivity. Qed.
Theorem first_last_size l : sf QFirst (VArray l) [] = Ok (nth 0 l VNil) /\ sf QLast (VArray l) [] = Ok (nth (length l - 1) l VNil) /\
  sf QSize (VArray l) [] = Ok (VScalar (SInt (Z.of_nat (length l)))).
Proof.
  repeat split; simpl; [destruct l; reflexivity|].
  f_equal. destruct l as [|x l] using rev_ind; [reflexivity|]. rewrite rev_unit, app_length, app_nth2; simpl; [|lia].
  replace (length l + 1 - 1 - length l) with 0 by lia. reflexivity.
Qed.
Theorem slice_array l off len : (1 <= len)%Z -> sf QSlice (VArray l) [VScalar (SInt off); VScalar (SInt len)] = Ok (VArray (slice_list off len l)).
Proof. intro H. unfold seq_filter. cbn. destruct (Z.ltb_spec len 1); [lia|reflexivity]. Qed.
Theorem join_spec l sep : sf QJoin (VArray l) [sstr sep] = Ok (sstr (join_str sep (map (to_kstr O) l))).
Proof. reflexivity. Qed.
Definition sort_cmp (a b : value) : comparison := cmp_or_eq (nil_safe_compare a b).
Lemma sort_filter_eq l : sf QSort (VArray l) [] = (do r <- sort_by sort_cmp l; Ok (VArray r)).
Proof. reflexivity. Qed.
Theorem sort_filter_spec l : total_preorder_on sort_cmp l = true ->
  sf QSort (VArray l) [] = Ok (VArray (stable_sort sort_cmp l)).
Proof. intro H. rewrite sort_filter_eq. unfold sort_by. rewrite H. reflexivity. Qed.
Theorem sort_filter_unspecified l : total_preorder_on sort_cmp l = false ->
  sf QSort (VArray l) [] = Panic site_sort_unspecified.
Proof. intro H. rewrite sort_filter_eq. unfold sort_by. rewrite H. reflexivity. Qed.
End F.
