(* UTF-8: decode (encode s) = Some s for every string of Unicode scalar values. *)
From LV Require Import Utf8 BaseLemmas.

Open Scope N_scope.
(* one direction each of N.ltb_lt, N.ltb_ge, N.leb_le, so that `rewrite ltb_true by lia` settles a comparison the decoder makes *)
Local Lemma ltb_true a b : a < b -> (a <? b) = true. Proof. apply N.ltb_lt. Qed.
Local Lemma ltb_false a b : b <= a -> (a <? b) = false. Proof. apply N.ltb_ge. Qed.
Local Lemma leb_true a b : a <= b -> (a <=? b) = true. Proof. apply N.leb_le. Qed.

Lemma is_cont_128 x : x < 64 -> is_cont (128 + x) = true.
Proof. intro H. unfold is_cont. rewrite leb_true, ltb_true by lia. reflexivity. Qed.

(* What decode_one does on a well-formed sequence of each length: the lead byte selects the
   length, c is the value the payload bits spell. *)
Lemma decode_one_1 b0 r : b0 < 128 -> decode_one (b0 :: r) = Some (b0, r).
Proof. intro H. cbn [decode_one]. rewrite ltb_true by exact H. reflexivity. Qed.
Lemma decode_one_2 b0 b1 r c : 192 <= b0 < 224 -> is_cont b1 = true ->
  c = (b0 - 192) * 64 + (b1 - 128) -> 128 <= c ->
  decode_one (b0 :: b1 :: r) = Some (c, r).
Proof.
  intros B0 C1 E L. cbn [decode_one]. rewrite <- E.
  rewrite (ltb_false b0 128), (ltb_false b0 192), (ltb_true b0 224) by lia.
  rewrite C1, leb_true by exact L. reflexivity.
Qed.
Lemma decode_one_3 b0 b1 b2 r c : 224 <= b0 < 240 -> is_cont b1 = true -> is_cont b2 = true ->
  c = (b0 - 224) * 4096 + (b1 - 128) * 64 + (b2 - 128) -> 2048 <= c -> valid_char c = true ->
  decode_one (b0 :: b1 :: b2 :: r) = Some (c, r).
Proof.
  intros B0 C1 C2 E L V. cbn [decode_one]. rewrite <- E.
  rewrite (ltb_false b0 128), (ltb_false b0 192), (ltb_false b0 224), (ltb_true b0 240) by lia.
  rewrite C1, C2, V, leb_true by exact L. reflexivity.
Qed.
Lemma decode_one_4 b0 b1 b2 b3 r c : 240 <= b0 < 248 ->
  is_cont b1 = true -> is_cont b2 = true -> is_cont b3 = true ->
  c = (b0 - 240) * 262144 + (b1 - 128) * 4096 + (b2 - 128) * 64 + (b3 - 128) -> 65536 <= c < 1114112 ->
  decode_one (b0 :: b1 :: b2 :: b3 :: r) = Some (c, r).
Proof.
  intros B0 C1 C2 C3 E [L U]. cbn [decode_one]. rewrite <- E.
  rewrite (ltb_false b0 128), (ltb_false b0 192), (ltb_false b0 224), (ltb_false b0 240), (ltb_true b0 248) by lia.
  rewrite C1, C2, C3, leb_true, ltb_true by assumption. reflexivity.
Qed.

(* encode_char in terms of the base-64 digits of c: each division is replaced by the equation that
   defines it, so that what follows is linear arithmetic over N. *)
Lemma encode_char_sextets c : exists q1 q2 q3 x0 x1 x2,
  c = q1 * 64 + x0 /\ q1 = q2 * 64 + x1 /\ q2 = q3 * 64 + x2 /\ x0 < 64 /\ x1 < 64 /\ x2 < 64 /\
  encode_char c = if c <? 128 then [c]
                  else if c <? 2048 then [192 + q1; 128 + x0]
                  else if c <? 65536 then [224 + q2; 128 + x1; 128 + x0]
                  else [240 + q3; 128 + x2; 128 + x1; 128 + x0].
Proof.
  unfold encode_char.
  change (c / 4096) with (c / (64 * 64)). change (c / 262144) with (c / (64 * 64 * 64)).
  rewrite <- !N.div_div by discriminate.
  destruct (N_div_mod_split c 64) as (q1 & x0 & -> & -> & E0 & M0); [discriminate|].
  destruct (N_div_mod_split q1 64) as (q2 & x1 & -> & -> & E1 & M1); [discriminate|].
  destruct (N_div_mod_split q2 64) as (q3 & x2 & -> & -> & E2 & M2); [discriminate|].
  exists q1, q2, q3, x0, x1, x2. repeat split; assumption.
Qed.

Lemma valid_char_lt c : valid_char c = true -> c < 1114112.
Proof.
  unfold valid_char. intro V. apply orb_prop in V as [V|V].
  - apply N.ltb_lt in V. lia.
  - apply andb_prop in V as [_ V]. apply N.ltb_lt, V.
Qed.

Lemma decode_one_encode c r : valid_char c = true -> decode_one (encode_char c ++ r) = Some (c, r).
Proof.
  intro V. destruct (encode_char_sextets c) as (q1 & q2 & q3 & x0 & x1 & x2 & E0 & E1 & E2 & M0 & M1 & M2 & ->).
  destruct (N.ltb_spec c 128) as [H1|H1]; [|destruct (N.ltb_spec c 2048) as [H2|H2]; [|destruct (N.ltb_spec c 65536) as [H3|H3]]].
  - apply decode_one_1, H1.
  - apply decode_one_2; [lia|apply is_cont_128; lia|lia..].
  - apply decode_one_3; [lia|apply is_cont_128; lia..|lia|lia|exact V].
  - apply valid_char_lt in V. apply decode_one_4; [lia|apply is_cont_128; lia..|lia|lia].
Qed.

Lemma encode_char_bytes c : valid_char c = true -> Forall (fun b => b < 256) (encode_char c).
Proof.
  intro V. apply valid_char_lt in V.
  destruct (encode_char_sextets c) as (q1 & q2 & q3 & x0 & x1 & x2 & E0 & E1 & E2 & M0 & M1 & M2 & ->).
  destruct (N.ltb_spec c 128); [|destruct (N.ltb_spec c 2048); [|destruct (N.ltb_spec c 65536)]]; repeat constructor; lia.
Qed.
Lemma encode_bytes s : forallb valid_char s = true -> Forall (fun b => b < 256) (encode s).
Proof.
  induction s as [|c s IH]; simpl; intro V; [constructor|]. apply andb_prop in V as [Vc Vs].
  apply Forall_app; split; [apply encode_char_bytes; assumption|auto].
Qed.
Close Scope N_scope.

Lemma encode_char_length c : 1 <= length (encode_char c) <= 4.
Proof. unfold encode_char. destruct (c <? 128)%N, (c <? 2048)%N, (c <? 65536)%N; simpl; lia. Qed.
Lemma encode_char_nonempty c : encode_char c <> [].
Proof. pose proof (encode_char_length c). destruct (encode_char c); simpl in *; [lia|discriminate]. Qed.
Lemma encode_length s : length s <= length (encode s).
Proof.
  induction s as [|c s IH]; simpl; [lia|]. rewrite app_length. pose proof (encode_char_length c). lia.
Qed.

Lemma decode_fuel_mono f : forall bs s, decode_fuel f bs = Some s -> forall g, f <= g -> decode_fuel g bs = Some s.
Proof.
  induction f as [|f IH]; intros bs s H g Hg.
  - destruct bs; simpl in H; [|discriminate]. inversion H. destruct g; reflexivity.
  - destruct bs as [|b bs']; [simpl in H; inversion H; destruct g; reflexivity|].
    destruct g as [|g]; [lia|]. cbn [decode_fuel] in *.
    destruct (decode_one (b :: bs')) as [[c r]|]; [|discriminate].
    destruct (decode_fuel f r) as [t|] eqn:E; [|discriminate]. rewrite (IH _ _ E g) by lia. exact H.
Qed.

Lemma decode_fuel_encode_char f c r : valid_char c = true ->
  decode_fuel (S f) (encode_char c ++ r) = match decode_fuel f r with Some s => Some (c :: s) | None => None end.
Proof.
  intro V. destruct (encode_char c ++ r) as [|b bs] eqn:E.
  - apply app_eq_nil in E as [E _]. destruct (encode_char_nonempty c E).
  - cbn [decode_fuel]. rewrite <- E, decode_one_encode by exact V. reflexivity.
Qed.

(* One unit of fuel per character suffices; decode supplies one per byte, and fuel is monotone. *)
Lemma decode_fuel_encode s : forallb valid_char s = true -> decode_fuel (length s) (encode s) = Some s.
Proof.
  induction s as [|c s IH]; intro V; [reflexivity|]. apply andb_prop in V as [Vc Vs].
  change (encode (c :: s)) with (encode_char c ++ encode s). cbn [length]. rewrite decode_fuel_encode_char, IH by assumption. reflexivity.
Qed.

Theorem decode_encode s : forallb valid_char s = true -> decode (encode s) = Some s.
Proof. intro V. apply (decode_fuel_mono _ _ _ (decode_fuel_encode s V)), encode_length. Qed.
