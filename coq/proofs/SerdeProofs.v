(* SerdeProofs.v — lemmas behind props/C12.v: a Liquid value through the serde conversions. *)

From LV Require Import Serde BaseLemmas ValueProofs DateProofs.

(* values with neither dates nor state markers: what serde can represent without loss *)
Fixpoint plain (v : value) : bool :=
  match v with
  | VScalar (SDateTime _) | VScalar (SDate _) | VState _ => false
  | VScalar _ | VNil => true
  | VArray l => forallb plain l
  | VObject kvs => forallb (fun kv => plain (snd kv)) kvs
  end.
Definition not_date_text (s : str) : bool :=
  match parse_default s, parse_date_default s with None, None => true | _, _ => false end.
Fixpoint no_date_text (v : value) : bool :=
  match v with
  | VScalar (SStr s) => not_date_text s
  | VArray l => forallb no_date_text l
  | VObject kvs => forallb (fun kv => no_date_text (snd kv)) kvs
  | _ => true
  end.

Lemma lookup_app_none {A} k (a b : list (str * A)) : lookup k (a ++ b) = None <-> lookup k a = None /\ lookup k b = None.
Proof.
  induction a as [|[y w] t IH]; cbn [app lookup]; [tauto|].
  destruct (str_eqb k y); [split; [discriminate|intros [H _]; discriminate]|exact IH].
Qed.
Lemma insert_all_fresh r : forall acc, NoDup (keys acc ++ keys r) -> insert_all r acc = acc ++ r.
Proof.
  induction r as [|[k v] t IH]; intros acc N; cbn [insert_all fold_left fst snd]; [rewrite app_nil_r; reflexivity|].
  cbn [keys map fst] in N. fold (keys t) in N.
  assert (lookup k acc = None) as L.
  { destruct (lookup k acc) eqn:E; [|reflexivity]. apply NoDup_remove_2 in N. destruct N.
    apply in_or_app. left. apply lookup_in_keys. congruence. }
  rewrite (upsert_fresh k v acc L). fold (insert_all t (acc ++ [(k, v)])). rewrite IH, <- app_assoc; [reflexivity|].
  unfold keys in *. rewrite map_app, <- app_assoc. exact N.
Qed.
Lemma mapM_cons {A B} (f : A -> res B) a t : mapM f (a :: t) = (do v <- f a; do r <- mapM f t; Ok (v :: r)).
Proof. reflexivity. Qed.
Lemma mapM_kv_cons {K A} (kf : K -> res str) (f : A -> res value) k a t :
  mapM_kv kf f ((k, a) :: t) = (do ks <- kf k; do v <- f a; do r <- mapM_kv kf f t; Ok ((ks, v) :: r)).
Proof. reflexivity. Qed.
Lemma mapM_id {A B} (f : A -> res B) (g : B -> A) l : Forall (fun x => f (g x) = Ok x) l -> mapM f (map g l) = Ok l.
Proof. induction 1 as [|x t Hx _ IH]; cbn [map]; [reflexivity|]. rewrite mapM_cons, Hx. cbn [bind]. rewrite IH. reflexivity. Qed.
Lemma mapM_kv_id {K A} (kf : K -> res str) (f : A -> res value) (h : str -> K) (g : value -> A) kvs :
  (forall k, kf (h k) = Ok k) -> Forall (fun kv => f (g (snd kv)) = Ok (snd kv)) kvs ->
  mapM_kv kf f (map (fun kv => (h (fst kv), g (snd kv))) kvs) = Ok kvs.
Proof.
  intro Hk. induction 1 as [|[k v] t Hx _ IH]; cbn [map]; [reflexivity|]. cbn [fst snd] in *.
  rewrite mapM_kv_cons, Hk, Hx. cbn [bind]. rewrite IH. reflexivity.
Qed.
Lemma build_entries_id {A} (kf : A -> res str) (f : A -> res value) (h : str -> A) (g : value -> A) kvs :
  (forall k, kf (h k) = Ok k) -> NoDup (keys kvs) -> Forall (fun kv => f (g (snd kv)) = Ok (snd kv)) kvs ->
  build_entries kf f (map (fun kv => (h (fst kv), g (snd kv))) kvs) [] = Ok kvs.
Proof.
  intros Hk N F. unfold build_entries. rewrite (mapM_kv_id kf f h g kvs Hk F). cbn [bind].
  rewrite insert_all_fresh; [reflexivity|exact N].
Qed.

Section RT.
Theorem to_value_roundtrip v : wf v -> plain v = true -> serde_to_value v = Ok v.
Proof.
  unfold serde_to_value. induction v as [s|l IH|l IH|s|] using value_ind'; intros W Pl;
    cbn [ser_value to_value_sd]; cbn [plain] in Pl; rewrite ?forallb_forall, ?Forall_forall in *.
  - destruct s; try discriminate; reflexivity.
  - rewrite mapM_id; [reflexivity|]. apply Forall_forall. intros x Hx. apply IH; auto using (wf_arr _ W).
  - destruct (wf_obj _ W) as [Wn Wl].
    rewrite (build_entries_id key_of to_value_sd DStr ser_value l (fun k => eq_refl) Wn); [reflexivity|].
    apply Forall_forall. intros [k x] Hx. apply IH; [exact Hx|apply (Wl _ Hx)|apply (Pl _ Hx)].
  - discriminate.
  - reflexivity.
Qed.

Lemma content_str s : not_date_text s = true -> value_of_content (DStr s) = Ok (VScalar (SStr s)).
Proof. unfold not_date_text. cbn [value_of_content]. destruct (parse_default s); [discriminate|]. destruct (parse_date_default s); [discriminate|]. reflexivity. Qed.
Theorem from_value_id v : wf v -> plain v = true -> no_date_text v = true -> serde_from_value v = Ok v.
Proof.
  unfold serde_from_value.
  induction v as [s|l IH|l IH|s|] using value_ind'; intros W Pl Nd;
    cbn [de_any value_of_content]; cbn [plain no_date_text] in Pl, Nd; rewrite ?forallb_forall, ?Forall_forall in *.
  - destruct s; try discriminate; try reflexivity. apply content_str. exact Nd.
  - rewrite mapM_id; [reflexivity|]. apply Forall_forall. intros x Hx. apply IH; auto using (wf_arr _ W).
  - destruct (wf_obj _ W) as [Wn Wl].
    rewrite (build_entries_id content_key value_of_content DStr de_any l (fun k => eq_refl) Wn); [reflexivity|].
    apply Forall_forall. intros [k x] Hx. apply IH; [exact Hx|apply (Wl _ Hx)|apply (Pl _ Hx)|apply (Nd _ Hx)].
  - discriminate.
  - reflexivity.
Qed.
Theorem from_value_roundtrip v : wf v -> plain v = true -> no_date_text v = true ->
  wf_value v = true -> serde_from_value v = Ok v.
Proof. intros W Pl Nd _. apply from_value_id; assumption. Qed.
Lemma ser_de_agree v : plain v = true -> ser_value v = de_any v.
Proof.
  induction v as [sc|l IH|l IH|st|] using value_ind'; intro Pl; try reflexivity; [| |discriminate].
  (* arrays and objects alike: the same map over the members *)
  all: cbn [ser_value de_any]; f_equal; cbn [plain] in Pl; rewrite forallb_forall in Pl; apply map_ext_in; intros x Hx;
    rewrite Forall_forall in IH; rewrite (IH x Hx (Pl x Hx)); reflexivity.
Qed.
Theorem json_roundtrip v : wf v -> plain v = true -> no_date_text v = true -> wf_value v = true -> serde_json_roundtrip v = Ok v.
Proof. intros. unfold serde_json_roundtrip. rewrite ser_de_agree by assumption. apply from_value_id; assumption. Qed.
End RT.

Theorem unsigned_narrowing z v : to_value_sd (DU64 z) = Ok v -> v = VScalar (SInt z) /\ in_i64 z = true.
Proof. cbn [to_value_sd]. destruct (in_i64 z) eqn:E; intro H; inversion H; auto. Qed.
Theorem unsigned_too_wide_rejected z : in_i64 z = false -> to_value_sd (DU64 z) = Err EOther.
Proof. intro H. cbn [to_value_sd]. rewrite H. reflexivity. Qed.
Theorem wide_integers_rejected z : to_value_sd (DWide z) = Err EOther.
Proof. reflexivity. Qed.
Theorem json_integers z :
  value_of_content (DI64 z) = Ok (VScalar (SInt z)) /\
  value_of_content (DU64 z) = Ok (VScalar (if in_i64 z then SInt z else SFloat (f_of_Z z))).
Proof. split; reflexivity. Qed.

(* dates: the known finding `serde-date-kind`, stated exactly *)
Section Dates.
Variable O : oracle.
Theorem datetime_becomes_its_text t :
  serde_to_value (VScalar (SDateTime t)) = Ok (VScalar (SStr (show_datetime t))) /\
  Value.render O (VScalar (SStr (show_datetime t))) = Value.render O (VScalar (SDateTime t)) /\
  type_name (VScalar (SStr (show_datetime t))) <> type_name (VScalar (SDateTime t)).
Proof. repeat split. vm_compute. discriminate. Qed.
Theorem datetime_text_read_back t : printable t ->
  serde_from_value (VScalar (SStr (show_datetime t))) = Ok (VScalar (SDateTime t)) /\
  serde_from_value (VScalar (SDateTime t)) = Ok (VScalar (SDateTime t)).
Proof.
  intros P. unfold serde_from_value. cbn [de_any value_of_content].
  rewrite (DateProofs.display_parse_roundtrip t P). split; reflexivity.
Qed.
Theorem text_of_a_datetime_becomes_a_datetime t : printable t -> dt_nano t = 0%Z ->
  serde_from_value (VScalar (SStr (show_datetime t))) = Ok (VScalar (SDateTime t)) /\
  serde_from_value (VScalar (SDateTime t)) = Ok (VScalar (SDateTime t)).
Proof. intros P _. exact (datetime_text_read_back t P). Qed.
End Dates.
