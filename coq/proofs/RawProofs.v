(* RawProofs.v — C03: what the delimiter rules and the Raw rule of the generated grammar match, exactly, on every
   text: Raw is the longest prefix in which no position starts markup, where the whitespace in front of
   a trim-marked opening delimiter counts as markup (left trim), and a trim-marked closing delimiter takes the
   whitespace run after it (right trim). *)
From LV Require Import Peg Grammar PegProofs.

Definition starts (l s : str) : bool := match strip_prefix l s with Some _ => true | None => false end.
Definition after (l s : str) : str := match strip_prefix l s with Some r => r | None => s end.
Definition open_tag : str := [123;37]%N.      Definition open_tag_trim : str := [123;37;45]%N.
Definition open_exp : str := [123;123]%N.     Definition open_exp_trim : str := [123;123;45]%N.
Definition close_tag : str := [37;125]%N.     Definition close_tag_trim : str := [45;37;125]%N.
Definition close_exp : str := [125;125]%N.    Definition close_exp_trim : str := [45;125;125]%N.

(* an opening delimiter: `ws* {%-`, else `{%` *)
Definition start_spec (plain trim : str) (s : str) (pos : nat) : option (str * nat * list tok) :=
  match strip_prefix trim (drop_ws s) with
  | Some r => Some (r, pos + count_ws s + 3, [])
  | None => match strip_prefix plain s with Some r => Some (r, pos + 2, []) | None => None end
  end.
Lemma start_exact (which : nat) (plain trim : str) at_ la s pos fuel :
  (which = r_TagStart /\ plain = open_tag /\ trim = open_tag_trim) \/ (which = r_ExpressionStart /\ plain = open_exp /\ trim = open_exp_trim) ->
  at_ <> NonAtomic -> 12 + length s <= fuel ->
  evg fuel at_ la (PRef which) s pos = Some (start_spec plain trim s pos).
Proof.
  intros Hw Hat Hf. peel 1 fuel.
  destruct Hw as [(-> & -> & ->) | (-> & -> & ->)];
    [erewrite ev_ref_silent by apply rule_TagStart|erewrite ev_ref_silent by apply rule_ExpressionStart];
    apply opening_delim_exact; (assumption || lia).
Qed.

(* a closing delimiter: `-%}` and the whitespace run after it, else `%}` *)
Definition end_spec (plain trim : str) (s : str) (pos : nat) : option (str * nat * list tok) :=
  match strip_prefix trim s with
  | Some r => Some (drop_ws r, pos + 3 + count_ws r, [])
  | None => match strip_prefix plain s with Some r => Some (r, pos + 2, []) | None => None end
  end.
Definition closing_delim (trim plain : str) : pe := PAlt (PSeq (PLit trim) (PStar (PRef r_WHITESPACE))) (PLit plain).
Lemma rule_TagEnd : nth_error liquid_grammar r_TagEnd = Some (mkRule MSilent (closing_delim close_tag_trim close_tag)).
Proof. reflexivity. Qed.
Lemma rule_ExpressionEnd : nth_error liquid_grammar r_ExpressionEnd = Some (mkRule MSilent (closing_delim close_exp_trim close_exp)).
Proof. reflexivity. Qed.
Lemma closing_delim_exact at_ la trim plain s pos fuel : at_ <> NonAtomic -> 11 + length s <= fuel ->
  evg fuel at_ la (closing_delim trim plain) s pos =
  Some (match strip_prefix trim s with
        | Some r => Some (drop_ws r, pos + length trim + count_ws r, [])
        | None => match strip_prefix plain s with Some r => Some (r, pos + length plain, []) | None => None end
        end).
Proof.
  intros Hat Hf. peel 3 fuel. unfold closing_delim. rewrite ev_alt, ev_seq, !ev_lit.
  destruct (strip_prefix trim s) as [r|] eqn:E; [|destruct (strip_prefix plain s); reflexivity].
  apply strip_prefix_app in E as ->. rewrite app_length in Hf. rewrite skipf_id, ws_star_any by (assumption || lia). reflexivity.
Qed.
Lemma end_exact (which : nat) (plain trim : str) at_ la s pos fuel :
  (which = r_TagEnd /\ plain = close_tag /\ trim = close_tag_trim) \/ (which = r_ExpressionEnd /\ plain = close_exp /\ trim = close_exp_trim) ->
  at_ <> NonAtomic -> 14 + length s <= fuel ->
  evg fuel at_ la (PRef which) s pos = Some (end_spec plain trim s pos).
Proof.
  intros Hw Hat Hf. peel 1 fuel.
  destruct Hw as [(-> & -> & ->) | (-> & -> & ->)];
    [erewrite ev_ref_silent by apply rule_TagEnd|erewrite ev_ref_silent by apply rule_ExpressionEnd];
    apply closing_delim_exact; (assumption || lia).
Qed.

(* the proofs use the regrouped form [markup_at_eq] *)
Definition markup_at (s : str) : bool :=
  starts open_tag_trim (drop_ws s) || starts open_tag s || starts open_exp_trim (drop_ws s) || starts open_exp s.
Lemma raw_item_exact s pos fuel : 16 + length s <= fuel ->
  evg fuel Atomic false raw_item s pos =
  Some (match s with c :: t => if markup_at s then None else Some (t, S pos, []) | [] => None end).
Proof.
  intros Hf. peel 3 fuel. unfold raw_item. rewrite ev_not_any, ev_alt by discriminate.
  rewrite (start_exact r_TagStart open_tag open_tag_trim), (start_exact r_ExpressionStart open_exp open_exp_trim)
    by (discriminate || lia || auto).
  unfold markup_at, starts, start_spec.
  destruct (strip_prefix open_tag_trim (drop_ws s)), (strip_prefix open_tag s),
    (strip_prefix open_exp_trim (drop_ws s)), (strip_prefix open_exp s), s; reflexivity.
Qed.

Fixpoint raw_len (s : str) : nat :=
  match s with [] => 0 | c :: t => if markup_at s then 0 else S (raw_len t) end.
Lemma raw_len_le s : raw_len s <= length s.
Proof. induction s as [|c t IH]; [reflexivity|]. cbn [raw_len length]. destruct (markup_at (c :: t)); lia. Qed.

Lemma raw_plus_exact : forall s pos fuel, 17 + length s <= fuel ->
  evg fuel Atomic false (PPlus raw_item) s pos =
  Some (match raw_len s with 0 => None | n => Some (skipn n s, pos + n, []) end).
Proof.
  induction s as [|c t IH]; intros pos fuel Hf; (peel 1 fuel); rewrite ev_plus, raw_item_exact by lia;
    [reflexivity|].
  cbn [raw_len]. destruct (markup_at (c :: t)); [reflexivity|]. cbn [length] in Hf.
  rewrite skipf_id, IH by (discriminate || lia). destruct (raw_len t); apply res_eq; lia.
Qed.
Theorem raw_rule_exact s pos fuel : 20 + length s <= fuel ->
  evg fuel Compound false (PRef r_Raw) s pos =
  Some (match raw_len s with 0 => None | n => Some (skipn n s, pos + n, [mkTok r_Raw pos (pos + n)]) end).
Proof.
  intros Hf. peel 1 fuel. erewrite ev_rule by apply rule_Raw.
  rewrite raw_plus_exact by lia. destruct (raw_len s); reflexivity.
Qed.

Fixpoint ends_nonws (t : str) : bool :=
  match t with [] => false | c :: t' => match t' with [] => negb (is_ws c) | _ => ends_nonws t' end end.
Definition all_ws (w : str) : bool := forallb is_ws w.
Definition brace (c : char) : bool := (c =? 123)%N.
Definition opener_trim (rest : str) : bool := starts open_tag_trim rest || starts open_exp_trim rest.
Definition opener (rest : str) : bool := starts open_tag rest || starts open_exp rest.

Lemma is_ws_not_brace c : is_ws c = true -> brace c = false.
Proof. unfold is_ws, brace. destruct (N.eqb_spec c 123) as [->|]; [discriminate|reflexivity]. Qed.
Lemma all_ws_no_brace w : all_ws w = true -> no_brace w = true.
Proof.
  intro H. apply forallb_forall. intros c Hc. apply negb_true_iff, is_ws_not_brace.
  exact (proj1 (forallb_forall _ _) H c Hc).
Qed.
Lemma drop_ws_all w x : all_ws w = true -> drop_ws (w ++ x) = drop_ws x.
Proof. induction w as [|c w IH]; [reflexivity|]. cbn [all_ws forallb app drop_ws]. intro H. apply andb_true_iff in H as [H1 H2]. rewrite H1. apply IH, H2. Qed.

Lemma starts_brace_head l c x : brace c = false -> starts (123%N :: l) (c :: x) = false.
Proof. unfold starts, brace. cbn [strip_prefix]. rewrite N.eqb_sym. intros ->. reflexivity. Qed.
Lemma opener_text c x : brace c = false -> opener (c :: x) = false /\ opener_trim (c :: x) = false.
Proof.
  intro Hb. unfold opener, opener_trim, open_tag, open_exp, open_tag_trim, open_exp_trim.
  rewrite !starts_brace_head by exact Hb. split; reflexivity.
Qed.
Lemma starts_app l m x : starts (l ++ m) x = true -> starts l x = true.
Proof.
  unfold starts. destruct (strip_prefix (l ++ m) x) as [r|] eqn:E; [|discriminate]. intros _.
  apply strip_prefix_app in E as ->. rewrite <- app_assoc, strip_prefix_same. reflexivity.
Qed.
Lemma opener_trim_opener rest : opener_trim rest = true -> opener rest = true.
Proof.
  unfold opener_trim, opener. intro H.
  apply orb_true_iff in H as [H|H]; [apply (starts_app open_tag [45%N]) in H|apply (starts_app open_exp [45%N]) in H];
    rewrite H; [reflexivity|apply orb_true_r].
Qed.
Lemma opener_drop rest : opener rest = true -> drop_ws rest = rest.
Proof.
  unfold opener, starts. intro H.
  destruct (strip_prefix open_tag rest) eqn:E1; [apply strip_prefix_app in E1 as ->; reflexivity|].
  destruct (strip_prefix open_exp rest) eqn:E2; [apply strip_prefix_app in E2 as ->; reflexivity|discriminate].
Qed.

Lemma markup_at_eq s : markup_at s = opener_trim (drop_ws s) || opener s.
Proof.
  unfold markup_at, opener_trim, opener.
  destruct (starts open_tag_trim (drop_ws s)), (starts open_tag s), (starts open_exp_trim (drop_ws s)); reflexivity.
Qed.
Lemma markup_opener rest : opener rest = true -> markup_at rest = true.
Proof. intro H. rewrite markup_at_eq, H. apply orb_true_r. Qed.
Lemma raw_len_markup s : markup_at s = true -> raw_len s = 0.
Proof. destruct s; [reflexivity|]. cbn [raw_len]. intros ->. reflexivity. Qed.

Lemma raw_len_ws_trim w rest : all_ws w = true -> opener_trim rest = true -> raw_len (w ++ rest) = 0.
Proof.
  intros Hw Ho. apply raw_len_markup.
  rewrite markup_at_eq, drop_ws_all, opener_drop, Ho by auto using opener_trim_opener. reflexivity.
Qed.

(* skipping whitespace from the start of y ++ x stops at a character of y, which is no brace, or runs through y into x *)
Lemma trim_not_next y x : no_brace y = true -> ends_nonws y = true \/ opener_trim (drop_ws x) = false ->
  opener_trim (drop_ws (y ++ x)) = false.
Proof.
  induction y as [|c y IH]; intros Hn Hd; [destruct Hd as [Hd|Hd]; [discriminate|exact Hd]|].
  apply andb_true_iff in Hn as [Hc Hn]. cbn [app drop_ws]. destruct (is_ws c) eqn:W; [|apply opener_text, negb_true_iff, Hc].
  apply IH; [exact Hn|]. destruct y; [|exact Hd]. cbn [ends_nonws] in Hd. rewrite W in Hd. exact Hd.
Qed.
(* text is Raw as far as it goes, unless the whitespace it ends with leads to a trim-marked opener *)
Lemma raw_len_text y x : no_brace y = true -> ends_nonws y = true \/ opener_trim (drop_ws x) = false ->
  raw_len (y ++ x) = length y + raw_len x.
Proof.
  induction y as [|c y IH]; intros Hn Hd; [reflexivity|]. pose proof (trim_not_next (c :: y) x Hn Hd) as T.
  cbn [app raw_len length] in *. rewrite markup_at_eq, T.
  apply andb_true_iff in Hn as [Hc Hn]. rewrite (proj1 (opener_text c _ (proj1 (negb_true_iff _) Hc))). cbn [orb Nat.add]. f_equal.
  destruct y; [reflexivity|]. apply IH; [exact Hn|exact Hd].
Qed.

Theorem left_trim_excludes_whitespace t w rest :
  no_brace t = true -> ends_nonws t = true -> all_ws w = true -> opener_trim rest = true ->
  raw_len (t ++ w ++ rest) = length t.
Proof. intros Hn He Hw Ho. rewrite raw_len_text, raw_len_ws_trim by auto. lia. Qed.
Theorem plain_opener_keeps_whitespace t w rest :
  no_brace t = true -> all_ws w = true -> opener rest = true -> opener_trim rest = false ->
  raw_len (t ++ w ++ rest) = length t + length w.
Proof.
  intros Hn Hw Ho Hnt. rewrite app_assoc, raw_len_text, raw_len_markup, app_length; [lia|apply markup_opener, Ho| |].
  - unfold no_brace. rewrite forallb_app. apply andb_true_iff. split; [exact Hn|apply all_ws_no_brace, Hw].
  - right. rewrite opener_drop by exact Ho. exact Hnt.
Qed.
