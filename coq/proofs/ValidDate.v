(* ValidDate.v — the date filter keeps text valid: whatever strftime writes is ASCII (numerals, names, signs, padding)
   or a piece of the format itself. *)
From LV Require Import Filters_date DateProofs ValidProofs.

Lemma after_percent_sv t l s r : sv l = true -> after_percent t l = Some (s, r) -> sv s = true /\ sv r = true.
Proof.
  intros Hl E. apply after_percent_spec in E as (u & -> & _ & A).
  rewrite sv_app in Hl. apply andb_true_iff in Hl as [Hu Hr]. split; [|exact Hr].
  destruct A as [A| ->]; [apply ascii_sv, A|rewrite sv_cons, Hu; reflexivity].
Qed.
Theorem strftime_sv t fmt o : sv fmt = true -> strftime t fmt = Ok o -> sv o = true.
Proof.
  revert fmt o. apply (strftime_ind t (fun l x => forall o, sv l = true -> x = Ok o -> sv o = true)).
  - intros o _ E. inversion E. reflexivity.
  - intros c l _ IH o Hl E. rewrite sv_cons in Hl. apply andb_true_iff in Hl as [Hc Hl].
    destruct (strftime t l) as [o'| | |]; try discriminate. inversion E.
    rewrite sv_cons, Hc. exact (IH _ Hl eq_refl).
  - intros l s r Ea IH o Hl E. rewrite sv_cons in Hl. apply andb_true_iff in Hl as [_ Hl].
    destruct (after_percent_sv _ _ _ _ Hl Ea) as [Hs Hr].
    destruct (strftime t r) as [o'| | |]; try discriminate. inversion E.
    rewrite sv_app, Hs. exact (IH _ Hr eq_refl).
  - discriminate.
Qed.
