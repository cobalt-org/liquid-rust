(* TreeProofs.v — for every grammar: (1) the pair tree flattens to the pair stream of Peg.ev; (2) induction over
   the successful runs of the tree evaluator; (3) the children analysis of PegTree.abs is sound: a pair's
   children are as many and of the rules the analysis says. *)
From LV Require Import PegTree PegProofs.

Lemma flat_node k cs : flat (TNode k cs) = k :: flats cs.
Proof. cbn [flat]. f_equal. Qed.
Lemma flats_app a b : flats (a ++ b) = flats a ++ flats b.
Proof. induction a as [|x a IH]; [reflexivity|]. cbn [app flats]. rewrite IH, app_assoc. reflexivity. Qed.

Definition flat_res (r : fres) : pres :=
  match r with
  | None => None
  | Some None => Some None
  | Some (Some (s, p, F)) => Some (Some (s, p, flats F))
  end.

Section Runs.
Variables (g : grammar) (ws : option nat).
Notation evf' := (evf g ws).

(* the implicit skip between the parts of a sequence and between repetitions *)
Definition skipt (f : nat) (at_ : atom) (la : bool) (s : str) (pos : nat) : fres :=
  match at_, ws with
  | NonAtomic, Some w => evf' f Atomic la (PStar (PRef w)) s pos
  | _, _ => Some (Some (s, pos, []))
  end.
Lemma skipt_id f at_ la s pos : at_ <> NonAtomic -> skipt f at_ la s pos = Some (Some (s, pos, [])).
Proof. intro H. destruct at_; [contradiction|reflexivity|reflexivity]. Qed.
Lemma evf_ref f at_ la n s pos : evf' (S f) at_ la (PRef n) s pos =
  match nth_error g n with
  | None => Some None
  | Some r =>
      match evf' f (mode_of (r_mod r) at_) la (r_body r) s pos with
      | Some (Some (s', p', ts)) =>
          Some (Some (s', p', if negb la && negb (atom_eqb at_ Atomic) && negb (is_silent (r_mod r))
                              then [TNode (mkTok n pos p') ts] else ts))
      | x => x
      end
  end.
Proof. reflexivity. Qed.
Lemma evf_alt f at_ la a b s pos : evf' (S f) at_ la (PAlt a b) s pos =
  match evf' f at_ la a s pos with Some None => evf' f at_ la b s pos | x => x end.
Proof. reflexivity. Qed.
Lemma evf_star f at_ la a s pos : evf' (S f) at_ la (PStar a) s pos =
  match evf' f at_ la (PPlus a) s pos with Some None => Some (Some (s, pos, [])) | x => x end.
Proof. reflexivity. Qed.
Lemma evf_seq f at_ la a b s pos : evf' (S f) at_ la (PSeq a b) s pos =
  match evf' f at_ la a s pos with
  | Some (Some (s1, p1, t1)) =>
      match skipt f at_ la s1 p1 with
      | Some (Some (s2, p2, _)) =>
          match evf' f at_ la b s2 p2 with
          | Some (Some (s3, p3, t3)) => Some (Some (s3, p3, t1 ++ t3))
          | x => x
          end
      | x => x
      end
  | x => x
  end.
Proof. reflexivity. Qed.
Lemma evf_plus f at_ la a s pos : evf' (S f) at_ la (PPlus a) s pos =
  match evf' f at_ la a s pos with
  | Some (Some (s1, p1, t1)) =>
      match skipt f at_ la s1 p1 with
      | Some (Some (s2, p2, _)) =>
          match evf' f at_ la (PPlus a) s2 p2 with
          | Some (Some (s3, p3, t3)) => Some (Some (s3, p3, t1 ++ t3))
          | Some None => Some (Some (s1, p1, t1))
          | None => None
          end
      | Some None => Some (Some (s1, p1, t1))
      | None => None
      end
  | x => x
  end.
Proof. reflexivity. Qed.

Theorem ev_flat : forall f at_ la e s pos, ev g ws f at_ la e s pos = flat_res (evf g ws f at_ la e s pos).
Proof.
  induction f as [|f IH]; intros at_ la e s pos; [reflexivity|].
  assert (Hskip : forall s pos, skipf g ws f at_ la s pos = flat_res (skipt f at_ la s pos)).
  { intros s0 p0. unfold skipf, skipt. destruct at_, ws; auto. }
  destruct e.
  - cbn [ev evf]. destruct (strip_prefix s0 s); reflexivity.
  - cbn [ev evf]. destruct s as [|c r]; [reflexivity|]. destruct ((a <=? c)%N && (c <=? b)%N); reflexivity.
  - cbn [ev evf]. destruct s; reflexivity.
  - cbn [ev evf]. destruct (Nat.eqb pos 0); reflexivity.
  - cbn [ev evf]. destruct s; [|reflexivity]. destruct (la || atom_eqb at_ Atomic); reflexivity.
  - rewrite ev_ref, evf_ref. destruct (nth_error g n) as [r|]; [|reflexivity]. rewrite IH.
    destruct (evf' f (mode_of (r_mod r) at_) la (r_body r) s pos) as [[[[s' p'] F]|]|]; cbn [flat_res]; try reflexivity.
    destruct (negb la && negb (atom_eqb at_ Atomic) && negb (is_silent (r_mod r))); [|reflexivity].
    cbn [flats]. rewrite flat_node, app_nil_r. reflexivity.
  - rewrite ev_seq, evf_seq, IH. destruct (evf' f at_ la e1 s pos) as [[[[s1 p1] t1]|]|]; cbn [flat_res]; try reflexivity.
    rewrite Hskip. destruct (skipt f at_ la s1 p1) as [[[[s2 p2] t2]|]|]; cbn [flat_res]; try reflexivity.
    rewrite IH. destruct (evf' f at_ la e2 s2 p2) as [[[[s3 p3] t3]|]|]; cbn [flat_res]; try reflexivity.
    rewrite flats_app. reflexivity.
  - rewrite ev_alt, evf_alt, IH. destruct (evf' f at_ la e1 s pos) as [[[[s1 p1] t1]|]|]; cbn [flat_res]; try reflexivity. apply IH.
  - rewrite ev_star, evf_star, IH. destruct (evf' f at_ la (PPlus e) s pos) as [[[[s1 p1] t1]|]|]; reflexivity.
  - rewrite ev_plus, evf_plus, IH. destruct (evf' f at_ la e s pos) as [[[[s1 p1] t1]|]|]; cbn [flat_res]; try reflexivity.
    rewrite Hskip. destruct (skipt f at_ la s1 p1) as [[[[s2 p2] t2]|]|]; cbn [flat_res]; try reflexivity.
    rewrite IH. destruct (evf' f at_ la (PPlus e) s2 p2) as [[[[s3 p3] t3]|]|]; cbn [flat_res]; try reflexivity.
    rewrite flats_app. reflexivity.
  - cbn [ev evf]. rewrite IH. destruct (evf' f at_ la e s pos) as [[[[s1 p1] t1]|]|]; reflexivity.
  - cbn [ev evf]. rewrite IH. destruct (evf' f at_ true e s pos) as [[[[s1 p1] t1]|]|]; reflexivity.
Qed.

(* Induction over the successful runs of the evaluator, one case for each way an expression can match (that
   the alternatives tried before it failed is not recorded).  Where a result is put together from several runs
   the runs themselves are given beside the induction hypotheses; the skip is either the identity or a run of
   the whitespace star. *)
Section Ind.
Variable la : bool.
Variable P : atom -> pe -> str -> nat -> str -> nat -> list ttree -> Prop.
Definition skipped (s : str) (pos : nat) (s' : str) (p' : nat) : Prop :=
  (s' = s /\ p' = pos) \/ exists w t, P Atomic (PStar (PRef w)) s pos s' p' t.
Hypotheses
  (Hlit : forall at_ l s pos r, strip_prefix l s = Some r -> P at_ (PLit l) s pos r (pos + length l) [])
  (Hrng : forall at_ a b c r pos, (a <=? c)%N && (c <=? b)%N = true -> P at_ (PRng a b) (c :: r) pos r (S pos) [])
  (Hany : forall at_ c r pos, P at_ PAny (c :: r) pos r (S pos) [])
  (Hsoi : forall at_ s, P at_ PSoi s 0 s 0 [])
  (Heoi : forall at_ pos,
     P at_ PEoi [] pos [] pos (if la || atom_eqb at_ Atomic then [] else [TNode (mkTok eoi_id pos pos) []]))
  (Href : forall f at_ n r s pos s' p' ts, nth_error g n = Some r ->
     evf' f (mode_of (r_mod r) at_) la (r_body r) s pos = Some (Some (s', p', ts)) ->
     P (mode_of (r_mod r) at_) (r_body r) s pos s' p' ts ->
     P at_ (PRef n) s pos s' p'
       (if negb la && negb (atom_eqb at_ Atomic) && negb (is_silent (r_mod r)) then [TNode (mkTok n pos p') ts] else ts))
  (Hseq : forall f at_ a b s pos s1 p1 t1 s2 p2 t2 s3 p3 t3,
     evf' f at_ la a s pos = Some (Some (s1, p1, t1)) -> P at_ a s pos s1 p1 t1 ->
     skipt f at_ la s1 p1 = Some (Some (s2, p2, t2)) -> skipped s1 p1 s2 p2 ->
     evf' f at_ la b s2 p2 = Some (Some (s3, p3, t3)) -> P at_ b s2 p2 s3 p3 t3 ->
     P at_ (PSeq a b) s pos s3 p3 (t1 ++ t3))
  (Halt_l : forall at_ a b s pos s' p' F, P at_ a s pos s' p' F -> P at_ (PAlt a b) s pos s' p' F)
  (Halt_r : forall at_ a b s pos s' p' F, P at_ b s pos s' p' F -> P at_ (PAlt a b) s pos s' p' F)
  (Hstar0 : forall at_ a s pos, P at_ (PStar a) s pos s pos [])
  (Hstar : forall at_ a s pos s' p' F, P at_ (PPlus a) s pos s' p' F -> P at_ (PStar a) s pos s' p' F)
  (Hplus1 : forall at_ a s pos s' p' F, P at_ a s pos s' p' F -> P at_ (PPlus a) s pos s' p' F)
  (Hplus : forall f at_ a s pos s1 p1 t1 s2 p2 t2 s3 p3 t3,
     evf' f at_ la a s pos = Some (Some (s1, p1, t1)) -> P at_ a s pos s1 p1 t1 ->
     skipt f at_ la s1 p1 = Some (Some (s2, p2, t2)) -> skipped s1 p1 s2 p2 ->
     evf' f at_ la (PPlus a) s2 p2 = Some (Some (s3, p3, t3)) -> P at_ (PPlus a) s2 p2 s3 p3 t3 ->
     P at_ (PPlus a) s pos s3 p3 (t1 ++ t3))
  (Hopt0 : forall at_ a s pos, P at_ (POpt a) s pos s pos [])
  (Hopt : forall at_ a s pos s' p' F, P at_ a s pos s' p' F -> P at_ (POpt a) s pos s' p' F)
  (Hnot : forall at_ a s pos, P at_ (PNot a) s pos s pos []).

Lemma evf_ok_ind : forall f at_ e s pos s' p' F, evf' f at_ la e s pos = Some (Some (s', p', F)) -> P at_ e s pos s' p' F.
Proof.
  induction f as [|f IH]; intros at_ e s pos s' p' F H; [discriminate|].
  assert (IHs : forall s1 p1 s2 p2 t2, skipt f at_ la s1 p1 = Some (Some (s2, p2, t2)) -> skipped s1 p1 s2 p2).
  { intros s1 p1 s2 p2 t2. unfold skipt. destruct at_, ws; try (intros [= -> -> _]; left; split; reflexivity).
    intro E. right. eauto. }
  destruct e; [| | | | | |rewrite evf_seq in H| | |rewrite evf_plus in H| |]; cbn [evf] in H.
  - destruct (strip_prefix s0 s) eqn:E; inversion H; subst. apply Hlit, E.
  - destruct s as [|c r]; [discriminate|]. destruct ((a <=? c)%N && (c <=? b)%N) eqn:E; inversion H; subst. apply Hrng, E.
  - destruct s; inversion H; subst. apply Hany.
  - destruct pos; inversion H; subst. apply Hsoi.
  - destruct s; inversion H; subst. apply Heoi.
  - destruct (nth_error g n) as [r|] eqn:En; [|discriminate].
    destruct (evf' f (mode_of (r_mod r) at_) la (r_body r) s pos) as [[[[s1 p1] ts]|]|] eqn:E; inversion H; subst.
    eapply Href; eauto.
  - destruct (evf' f at_ la e1 s pos) as [[[[s1 p1] t1]|]|] eqn:E1; try discriminate.
    destruct (skipt f at_ la s1 p1) as [[[[s2 p2] t2]|]|] eqn:E2; try discriminate.
    destruct (evf' f at_ la e2 s2 p2) as [[[[s3 p3] t3]|]|] eqn:E3; inversion H; subst.
    eapply Hseq; eauto.
  - destruct (evf' f at_ la e1 s pos) as [[[[s1 p1] t1]|]|] eqn:E1; try discriminate.
    + inversion H; subst. apply Halt_l; eauto.
    + apply Halt_r; eauto.
  - destruct (evf' f at_ la (PPlus e) s pos) as [[[[s1 p1] t1]|]|] eqn:E1; inversion H; subst.
    + apply Hstar; eauto.
    + apply Hstar0.
  - destruct (evf' f at_ la e s pos) as [[[[s1 p1] t1]|]|] eqn:E1; try discriminate.
    destruct (skipt f at_ la s1 p1) as [[[[s2 p2] t2]|]|] eqn:E2; try discriminate.
    + destruct (evf' f at_ la (PPlus e) s2 p2) as [[[[s3 p3] t3]|]|] eqn:E3; inversion H; subst.
      * eapply Hplus; eauto.
      * apply Hplus1; eauto.
    + inversion H; subst. apply Hplus1; eauto.
  - destruct (evf' f at_ la e s pos) as [[[[s1 p1] t1]|]|] eqn:E1; inversion H; subst.
    + apply Hopt; eauto.
    + apply Hopt0.
  - destruct (evf' f at_ true e s pos) as [[x|]|]; inversion H; subst. apply Hnot.
Qed.
End Ind.

Lemma evf_span la : forall f at_ e s pos s' p' F, evf' f at_ la e s pos = Some (Some (s', p', F)) ->
  pos <= p' /\ p' + length s' = pos + length s.
Proof.
  apply (evf_ok_ind la (fun _ _ s pos s' p' _ => pos <= p' /\ p' + length s' = pos + length s));
    try (intros; cbn [length]; lia).
  - intros at_ l s pos r ->%strip_prefix_app. rewrite app_length. lia.
  - intros f at_ a b s pos s1 p1 t1 s2 p2 t2 s3 p3 t3 _ IH1 _ [[-> ->]|(w & t & IHs)] _ IH2; lia.
  - intros f at_ a s pos s1 p1 t1 s2 p2 t2 s3 p3 t3 _ IH1 _ [[-> ->]|(w & t & IHs)] _ IH2; lia.
Qed.
Lemma skipt_span f at_ la s pos s' p' t : skipt f at_ la s pos = Some (Some (s', p', t)) ->
  pos <= p' /\ p' + length s' = pos + length s.
Proof. pose proof (evf_span la f Atomic) as E. unfold skipt. destruct at_, ws; try (intros [= -> -> _]; lia). apply E. Qed.
End Runs.

Lemma ev_ok_tree g ws f at_ la e s pos s' p' t : ev g ws f at_ la e s pos = Some (Some (s', p', t)) ->
  exists F, evf g ws f at_ la e s pos = Some (Some (s', p', F)).
Proof. rewrite ev_flat. destruct (evf g ws f at_ la e s pos) as [[[[s1 p1] F]|]|]; [|discriminate..]. intros [= -> -> _]. eauto. Qed.
Corollary ev_span g ws f at_ la e s pos s' p' t : ev g ws f at_ la e s pos = Some (Some (s', p', t)) ->
  pos <= p' /\ p' + length s' = pos + length s.
Proof. intro H. apply ev_ok_tree in H as [F H]. exact (evf_span g ws la _ _ _ _ _ _ _ _ H). Qed.

(* the i-th root belongs to the i-th set of p while there is one, to r after that *)
Fixpoint sat_pos (p : list (list nat)) (r : list nat) (roots : list nat) : Prop :=
  match roots with
  | [] => True
  | x :: xs => match p with
               | [] => mem x r = true /\ sat_pos [] r xs
               | q :: p' => mem x q = true /\ sat_pos p' r xs
               end
  end.
(* the root rules of a forest are as A describes them (the reading of [fabs] given in model/PegTree.v) *)
Definition sat (A : fabs) (roots : list nat) : Prop :=
  lo A <= length roots /\ (match hi A with Some h => length roots <= h | None => True end) /\
  sat_pos (pre A) (rest A) roots.
Definition subset (a b : list nat) : Prop := forall x, mem x a = true -> mem x b = true.

Lemma mem_cons x y l : mem x (y :: l) = Nat.eqb x y || mem x l.
Proof. reflexivity. Qed.
Lemma mem_union x a b : mem x (union a b) = mem x a || mem x b.
Proof.
  induction a as [|y a IH]; [reflexivity|]. cbn [union]. destruct (mem y b) eqn:E; rewrite !mem_cons, IH.
  - destruct (Nat.eqb_spec x y) as [->|_]; [|reflexivity]. rewrite E. apply orb_true_r.
  - apply orb_assoc.
Qed.
Lemma subset_refl a : subset a a. Proof. intros x H; exact H. Qed.
Lemma subset_union_l a b : subset a (union a b). Proof. intros x H. rewrite mem_union, H. reflexivity. Qed.
Lemma subset_union_r a b : subset b (union a b). Proof. intros x H. rewrite mem_union, H. apply orb_true_r. Qed.
Lemma subset_trans a b c : subset a b -> subset b c -> subset a c. Proof. intros H1 H2 x H. auto. Qed.
Lemma subset_rest_all A : subset (rest A) (all_of A).
Proof. unfold all_of. induction (pre A) as [|p ps IH]; [apply subset_refl|]. exact (subset_trans _ _ _ IH (subset_union_r _ _)). Qed.
Lemma subset_pre_all A p : In p (pre A) -> subset p (all_of A).
Proof.
  unfold all_of. induction (pre A) as [|q ps IH]; [intros []|]. intros [->|H]; cbn [fold_right].
  - apply subset_union_l.
  - exact (subset_trans _ _ _ (IH H) (subset_union_r _ _)).
Qed.

(* [sat_pos [] U xs] says that xs is made of elements of U: so much is left of a description when all its sets are
   within U *)
Lemma sat_pos_within p r U xs : (forall q, In q p -> subset q U) -> subset r U -> sat_pos p r xs -> sat_pos [] U xs.
Proof.
  revert p. induction xs as [|x xs IH]; intros p Hp Hr H; [exact I|].
  cbn [sat_pos] in *. destruct p as [|q p']; destruct H as [H1 H2].
  - split; [apply Hr, H1|]. apply (IH []); [intros q []|exact Hr|exact H2].
  - split; [apply (Hp q (or_introl eq_refl)), H1|]. apply (IH p'); [|exact Hr|exact H2]. intros q' Hq. apply Hp. right. exact Hq.
Qed.
Lemma sat_pos_nil_subset r r' x : subset r r' -> sat_pos [] r x -> sat_pos [] r' x.
Proof. apply sat_pos_within. intros q []. Qed.
Lemma sat_pos_nil_app U x y : sat_pos [] U x -> sat_pos [] U y -> sat_pos [] U (x ++ y).
Proof. intros Hx Hy. induction x as [|a x IH]; [exact Hy|]. destruct Hx as [H1 H2]. split; [exact H1|exact (IH H2)]. Qed.
Lemma sat_all A xs : sat A xs -> sat_pos [] (all_of A) xs.
Proof. intros (_ & _ & H). exact (sat_pos_within _ _ _ _ (subset_pre_all A) (subset_rest_all A) H). Qed.

Lemma sat_empty : sat a_empty []. Proof. unfold sat; cbn. repeat split; auto. Qed.
Lemma sat_single n : sat (a_single n) [n].
Proof. unfold sat; cbn. rewrite Nat.eqb_refl. repeat split; auto. Qed.

Lemma sat_pos_padded_exact y pB rB rA : sat_pos pB rB y -> forall x pA, sat_pos pA rA x ->
  sat_pos (padded (length x) pA rA ++ pB) rB (x ++ y).
Proof.
  intros Hy. induction x as [|a x IH]; intros pA Hx; [exact Hy|].
  cbn [length padded app]. cbn [sat_pos] in Hx. destruct pA as [|q pA']; destruct Hx as [H1 H2]; cbn [app sat_pos]; (split; [exact H1|]); apply IH; exact H2.
Qed.
Lemma sat_pos_padded_general U rA : forall n x pA z, sat_pos pA rA x -> n <= length x ->
  sat_pos [] U (x ++ z) -> sat_pos (padded n pA rA) U (x ++ z).
Proof.
  induction n as [|n IH]; intros x pA z Hx Hn Hall; [exact Hall|].
  destruct x as [|a x]; [cbn in Hn; lia|]. cbn [app length sat_pos] in *. destruct Hall as [_ Hall].
  destruct pA as [|q pA']; destruct Hx as [H1 H2]; cbn [padded sat_pos]; (split; [exact H1|]); apply IH; auto; lia.
Qed.

Lemma sat_seq A B x y : sat A x -> sat B y -> sat (a_seq A B) (x ++ y).
Proof.
  intros HA HB. pose proof (sat_all _ _ HA) as AllA. pose proof (sat_all _ _ HB) as AllB.
  destruct HA as (A1 & A2 & A3). destruct HB as (B1 & B2 & B3).
  unfold a_seq. destruct (exact A) eqn:E.
  - unfold exact in E. destruct (hi A) as [h|] eqn:Eh; [|discriminate]. apply Nat.eqb_eq in E. subst h.
    assert (Hlen : length x = lo A) by lia.
    unfold sat; cbn [lo hi pre rest]. rewrite app_length. split; [lia|]. split.
    + unfold hi_add. destruct (hi B); [lia|exact I].
    + rewrite <- Hlen. apply sat_pos_padded_exact; assumption.
  - unfold sat; cbn [lo hi pre rest]. rewrite app_length. split; [lia|]. split.
    + unfold hi_add. destruct (hi A), (hi B); try exact I; lia.
    + apply sat_pos_padded_general; [exact A3|lia|].
      apply sat_pos_nil_app; [exact (sat_pos_nil_subset _ _ _ (subset_union_l _ _) AllA)|exact (sat_pos_nil_subset _ _ _ (subset_union_r _ _) AllB)].
Qed.

Lemma sat_pos_zip_l rp rq : forall x n p q, length p <= n -> sat_pos p rp x -> sat_pos (zip_union n p q rp rq) (union rp rq) x.
Proof.
  induction x as [|a x IH]; intros n p q Hn H; [exact I|].
  destruct n as [|n].
  - destruct p; [|cbn in Hn; lia]. exact (sat_pos_nil_subset _ _ _ (subset_union_l _ _) H).
  - cbn [zip_union sat_pos]. cbn [sat_pos] in H. destruct p as [|p0 p']; destruct H as [H1 H2].
    + split; [apply subset_union_l, H1|]. apply IH; [cbn; lia|exact H2].
    + split; [apply subset_union_l, H1|]. apply IH; [cbn in *; lia|exact H2].
Qed.
Lemma sat_pos_zip_r rp rq : forall x n p q, length q <= n -> sat_pos q rq x -> sat_pos (zip_union n p q rp rq) (union rp rq) x.
Proof.
  induction x as [|a x IH]; intros n p q Hn H; [exact I|].
  destruct n as [|n].
  - destruct q; [|cbn in Hn; lia]. exact (sat_pos_nil_subset _ _ _ (subset_union_r _ _) H).
  - cbn [zip_union sat_pos]. cbn [sat_pos] in H. destruct q as [|q0 q']; destruct H as [H1 H2].
    + split; [apply subset_union_r, H1|]. apply IH; [cbn; lia|exact H2].
    + split; [apply subset_union_r, H1|]. apply IH; [cbn in *; lia|exact H2].
Qed.
Lemma sat_alt_l A B x : sat A x -> sat (a_alt A B) x.
Proof.
  intros (A1 & A2 & A3). unfold sat, a_alt; cbn [lo hi pre rest]. split; [lia|]. split.
  - unfold hi_max. destruct (hi A), (hi B); try exact I. lia.
  - apply sat_pos_zip_l; [lia|exact A3].
Qed.
Lemma sat_alt_r A B x : sat B x -> sat (a_alt A B) x.
Proof.
  intros (A1 & A2 & A3). unfold sat, a_alt; cbn [lo hi pre rest]. split; [lia|]. split.
  - unfold hi_max. destruct (hi A), (hi B); try exact I. lia.
  - apply sat_pos_zip_r; [lia|exact A3].
Qed.

Lemma sat_star_nil A : sat (a_star A) [].
Proof. unfold sat, a_star; cbn. repeat split; auto. destruct (hi A) as [[|h]|]; auto. Qed.
Lemma all_of_star A : all_of (a_star A) = all_of A. Proof. reflexivity. Qed.
Lemma padded_subset U : forall n p r q, (forall q', In q' p -> subset q' U) -> subset r U -> In q (padded n p r) -> subset q U.
Proof.
  induction n as [|n IH]; intros p r q Hp Hr H; [destruct H|].
  destruct p as [|p0 p']; cbn [padded] in H; destruct H as [<-|H].
  - exact Hr.
  - apply (IH [] r q); [intros q' []|exact Hr|exact H].
  - apply Hp. left. reflexivity.
  - apply (IH p' r q); [|exact Hr|exact H]. intros q' Hq'. apply Hp. right. exact Hq'.
Qed.
(* what a+ allows a* allows: both draw on the sets of a, and a+ is bounded only if a yields nothing *)
Lemma sat_plus_star A x : sat (a_plus A) x -> sat (a_star A) x.
Proof.
  intros (_ & Hhi & H). unfold a_plus, a_seq in Hhi, H.
  assert (Hp : forall q, In q (padded (lo A) (pre A) (rest A)) -> subset q (all_of A)).
  { intros q. apply padded_subset; [apply subset_pre_all|apply subset_rest_all]. }
  split; [apply Nat.le_0_l|]. split; cbn [hi pre rest a_star].
  - destruct (hi A) as [[|h]|] eqn:Eh; [|exact I..]. destruct (exact A); cbn [hi a_star] in Hhi; rewrite Eh in Hhi; exact Hhi.
  - destruct (exact A); cbn [pre rest a_star] in H; refine (sat_pos_within _ _ _ _ _ _ H).
    + intros q [Hq|[]]%in_app_or. exact (Hp q Hq).
    + apply subset_refl.
    + exact Hp.
    + intros y Hy. rewrite mem_union, all_of_star, orb_diag in Hy. exact Hy.
Qed.
Lemma sat_plus_one A x : sat A x -> sat (a_plus A) x.
Proof. intro H. rewrite <- (app_nil_r x). apply sat_seq; [exact H|apply sat_star_nil]. Qed.
Lemma sat_plus_more A x y : sat A x -> sat (a_plus A) y -> sat (a_plus A) (x ++ y).
Proof. intros H1 H2. apply sat_seq; [exact H1|apply sat_plus_star, H2]. Qed.

Definition roots (F : list ttree) : list nat := map root F.
Lemma roots_app a b : roots (a ++ b) = roots a ++ roots b. Proof. apply map_app. Qed.

Section Sound.
Variable g : grammar.
Variable ws : option nat.
Notation evf' := (evf g ws).

Theorem abs_sound : forall f at_ e s pos s' p' F, evf' f at_ false e s pos = Some (Some (s', p', F)) ->
  forall K A, abs g K at_ e = Some A -> sat A (roots F).
Proof.
  (* restated so that an analysis that ran out of K (None) claims nothing; then one sat_ lemma per way of matching *)
  enough (Hm : forall f at_ e s pos s' p' F, evf' f at_ false e s pos = Some (Some (s', p', F)) ->
                forall K, match abs g K at_ e with Some A => sat A (roots F) | None => True end).
  { intros f at_ e s pos s' p' F H K A HA. specialize (Hm _ _ _ _ _ _ _ _ H K). rewrite HA in Hm. exact Hm. }
  apply (evf_ok_ind g ws false (fun at_ e _ _ _ _ F => forall K, match abs g K at_ e with Some A => sat A (roots F) | None => True end)).
  - intros at_ l s pos r _ [|K]; [exact I|apply sat_empty].
  - intros at_ a b c r pos _ [|K]; [exact I|apply sat_empty].
  - intros at_ c r pos [|K]; [exact I|apply sat_empty].
  - intros at_ s [|K]; [exact I|apply sat_empty].
  - intros at_ pos [|K]; [exact I|]. cbn [abs orb]. destruct (atom_eqb at_ Atomic); [apply sat_empty|apply sat_single].
  - intros f at_ n r s pos s' p' ts En _ IH [|K]; [exact I|]. cbn [abs negb andb]. rewrite En.
    destruct (negb (atom_eqb at_ Atomic) && negb (is_silent (r_mod r))); [apply sat_single|apply IH].
  - intros f at_ a b s pos s1 p1 t1 s2 p2 t2 s3 p3 t3 _ IH1 _ _ _ IH2 [|K]; [exact I|]. cbn [abs].
    specialize (IH1 K). specialize (IH2 K). destruct (abs g K at_ a), (abs g K at_ b); try exact I.
    rewrite roots_app. apply sat_seq; assumption.
  - intros at_ a b s pos s' p' F IH [|K]; [exact I|]. cbn [abs].
    specialize (IH K). destruct (abs g K at_ a), (abs g K at_ b); try exact I. apply sat_alt_l, IH.
  - intros at_ a b s pos s' p' F IH [|K]; [exact I|]. cbn [abs].
    specialize (IH K). destruct (abs g K at_ a), (abs g K at_ b); try exact I. apply sat_alt_r, IH.
  - intros at_ a s pos [|K]; [exact I|]. cbn [abs]. destruct (abs g K at_ a); [apply sat_star_nil|exact I].
  - intros at_ a s pos s' p' F IH [|K]; [exact I|]. specialize (IH (S K)). cbn [abs] in *.
    destruct (abs g K at_ a); [apply sat_plus_star, IH|exact I].
  - intros at_ a s pos s' p' F IH [|K]; [exact I|]. cbn [abs].
    specialize (IH K). destruct (abs g K at_ a); [apply sat_plus_one, IH|exact I].
  - intros f at_ a s pos s1 p1 t1 s2 p2 t2 s3 p3 t3 _ IH1 _ _ _ IH2 [|K]; [exact I|].
    specialize (IH1 K). specialize (IH2 (S K)). cbn [abs] in *. destruct (abs g K at_ a); [|exact I].
    rewrite roots_app. apply sat_plus_more; assumption.
  - intros at_ a s pos [|K]; [exact I|]. cbn [abs]. destruct (abs g K at_ a); [apply sat_alt_r, sat_empty|exact I].
  - intros at_ a s pos s' p' F IH [|K]; [exact I|]. cbn [abs].
    specialize (IH K). destruct (abs g K at_ a); [apply sat_alt_l, IH|exact I].
  - intros at_ a s pos [|K]; [exact I|apply sat_empty].
Qed.

Definition local_ok (K : nat) (k : tok) (cs : list ttree) : Prop :=
  exists m, m <> Atomic /\ match child_abs g K m (t_rule k) with Some A => sat A (roots cs) | None => True end.
Fixpoint wf_tree (K : nat) (t : ttree) : Prop :=
  match t with TNode k cs =>
    local_ok K k cs /\
    (fix all (l : list ttree) : Prop := match l with [] => True | c :: l' => wf_tree K c /\ all l' end) cs
  end.
Fixpoint wf_forest (K : nat) (F : list ttree) : Prop :=
  match F with [] => True | c :: F' => wf_tree K c /\ wf_forest K F' end.
Lemma wf_tree_unfold K k cs : wf_tree K (TNode k cs) <-> local_ok K k cs /\ wf_forest K cs.
Proof.
  cbn [wf_tree]. assert (E : forall l, (fix all (l : list ttree) : Prop := match l with [] => True | c :: l' => wf_tree K c /\ all l' end) l <-> wf_forest K l).
  { intros l. induction l as [|c l IH]; [reflexivity|]. cbn [wf_forest]. rewrite IH. reflexivity. }
  rewrite E. reflexivity.
Qed.
Lemma wf_forest_app K a b : wf_forest K a -> wf_forest K b -> wf_forest K (a ++ b).
Proof. induction a as [|x a IH]; [auto|]. cbn [app wf_forest]. intros [H1 H2] Hb. split; auto. Qed.
Lemma wf_forest_one K m k cs : m <> Atomic ->
  match child_abs g K m (t_rule k) with Some A => sat A (roots cs) | None => True end ->
  wf_forest K cs -> wf_forest K [TNode k cs].
Proof. intros Hm HA Hcs. split; [|exact I]. apply wf_tree_unfold. split; [exists m; split; assumption|exact Hcs]. Qed.

(* needed from here on only: the number of the EOI pair is not that of a rule of g, so child_abs allows it no children *)
Hypothesis eoi_free : length g <= eoi_id.

Theorem wf_sound K : forall f at_ e s pos s' p' F, evf' f at_ false e s pos = Some (Some (s', p', F)) -> wf_forest K F.
Proof.
  apply (evf_ok_ind g ws false (fun _ _ _ _ _ _ F => wf_forest K F)); try (intros; assumption || exact I).
  - intros at_ pos. cbn [orb]. destruct (atom_eqb at_ Atomic) eqn:Ea; [exact I|].
    apply (wf_forest_one K at_); [intros ->; discriminate| |exact I].
    unfold child_abs. cbn [t_rule]. rewrite (proj2 (nth_error_None g eoi_id) eoi_free). apply sat_empty.
  - intros f at_ n r s pos s' p' ts En E IH. cbn [negb andb].
    destruct (atom_eqb at_ Atomic) eqn:Ea; [exact IH|]. destruct (is_silent (r_mod r)); [exact IH|]. cbn [negb andb].
    apply (wf_forest_one K at_); [intros ->; discriminate| |exact IH].
    unfold child_abs. cbn [t_rule]. rewrite En.
    destruct (abs g K (mode_of (r_mod r) at_) (r_body r)) as [A|] eqn:HA; [|exact I]. exact (abs_sound _ _ _ _ _ _ _ _ E _ _ HA).
  - intros f at_ a b s pos s1 p1 t1 s2 p2 t2 s3 p3 t3 _ IH1 _ _ _ IH2. apply wf_forest_app; assumption.
  - intros f at_ a s pos s1 p1 t1 s2 p2 t2 s3 p3 t3 _ IH1 _ _ _ IH2. apply wf_forest_app; assumption.
Qed.
End Sound.
