(* DateProofs.v — lemmas behind props/C17.v: the civil calendar, chronological ordering, the numerals and
   fractions the directives print, the default printed form read back, and the strftime interpreter: what one
   directive consumes and writes (also the ground of ValidDate.v), its equations, totality, the echo. *)
From LV Require Import Strftime BaseLemmas DecimalProofs.
Require Import ZifyBool ZifyN.

Definition next_day (d : date) : date :=
  if (d_day d <? days_in_month (d_year d) (d_month d))%Z then mkDate (d_year d) (d_month d) (d_day d + 1)
  else if (d_month d <? 12)%Z then mkDate (d_year d) (d_month d + 1) 1
  else mkDate (d_year d + 1) 1 1.
Definition jan1 (y : Z) : Z := date_days (mkDate y 1 1).
Definition year_len (y : Z) : Z := if is_leap y then 366%Z else 365%Z.

Local Open Scope Z_scope.

Lemma year_len_range y : 365 <= year_len y <= 366.
Proof. unfold year_len. destruct (is_leap y); lia. Qed.
Lemma days_in_month_range y m : 28 <= days_in_month y m <= 31.
Proof.
  unfold days_in_month.
  destruct (m =? 2); [destruct (is_leap y)|destruct ((m =? 4) || (m =? 6) || (m =? 9) || (m =? 11))]; lia.
Qed.
Lemma valid_date_spec d : valid_date d = true <->
  1 <= d_month d <= 12 /\ 1 <= d_day d <= days_in_month (d_year d) (d_month d).
Proof. unfold valid_date. lia. Qed.

Lemma each_month (P : Z -> Prop) : Forall P [1;2;3;4;5;6;7;8;9;10;11;12] -> forall m, 1 <= m <= 12 -> P m.
Proof. intros F m H. rewrite Forall_forall in F. apply F. cbn [In]. lia. Qed.

(* days_from_civil counts years from 1 March, so that the leap day comes last: the day number is that of
   1 March of the shifted year (365 days a year and the leap days of the 4/100/400 rule), plus a month offset
   that does not depend on the year, plus the day *)
Definition march1 (y : Z) : Z := 365 * y + y / 4 - y / 100 + y / 400 - 719468.
Lemma civil_from_march y m d :
  days_from_civil y m d = march1 (if m <=? 2 then y - 1 else y) + (153 * ((m + 9) mod 12) + 2) / 5 + d - 1.
Proof.
  unfold march1, days_from_civil. cbv zeta.
  generalize (if m <=? 2 then y - 1 else y) ((153 * ((m + 9) mod 12) + 2) / 5). intros. Z.div_mod_to_equations. lia.
Qed.
(* February of y ends the year that starts on 1 March of y - 1 *)
Lemma march1_next y : march1 y = march1 (y - 1) + year_len y.
Proof.
  unfold march1, year_len, is_leap.
  destruct ((y mod 4 =? 0) && negb (y mod 100 =? 0) || (y mod 400 =? 0)) eqn:L; Z.div_mod_to_equations; lia.
Qed.
Lemma month_offset m : 1 <= m <= 12 ->
  (153 * ((m + 9) mod 12) + 2) / 5 = cum_days m + (if m <=? 2 then 306 else -59).
Proof. revert m. apply each_month. repeat constructor. Qed.
Lemma jan1_march y : jan1 y = march1 (y - 1) + 306.
Proof.
  unfold jan1, date_days. cbn [d_year d_month d_day]. rewrite civil_from_march.
  change (1 <=? 2) with true. cbv iota. change ((153 * ((1 + 9) mod 12) + 2) / 5) with 306. lia.
Qed.
Lemma jan1_next y : jan1 (y + 1) = (jan1 y + year_len y)%Z.
Proof. rewrite !jan1_march. replace (y + 1 - 1) with y by lia. rewrite (march1_next y). lia. Qed.

Definition days_before (y m : Z) : Z := cum_days m + (if is_leap y && (2 <? m) then 1 else 0).
Lemma ordinal_days_before d : ordinal d = days_before (d_year d) (d_month d) + d_day d.
Proof. unfold ordinal, days_before. lia. Qed.
Lemma days_before_jan y : days_before y 1 = 0.
Proof. unfold days_before. rewrite andb_false_r. reflexivity. Qed.
Lemma month_end y m : 1 <= m <= 12 ->
  days_before y m + days_in_month y m = if m =? 12 then year_len y else days_before y (m + 1).
Proof. revert m. unfold days_before, days_in_month, year_len. destruct (is_leap y); apply each_month; repeat constructor. Qed.
Lemma days_before_bounds y m : 1 <= m <= 12 ->
  0 <= days_before y m /\ days_before y m + days_in_month y m <= year_len y.
Proof.
  revert m. unfold days_before, days_in_month, year_len.
  destruct (is_leap y); apply each_month; repeat constructor; discriminate.
Qed.
Lemma days_from_jan1 y m d : 1 <= m <= 12 -> days_from_civil y m d = jan1 y + days_before y m + d - 1.
Proof.
  intro H. rewrite civil_from_march, (month_offset m H), jan1_march. unfold days_before.
  destruct (Z.leb_spec m 2).
  - replace (2 <? m) with false by lia. rewrite andb_false_r. lia.
  - replace (2 <? m) with true by lia. rewrite andb_true_r, (march1_next y). unfold year_len. destruct (is_leap y); lia.
Qed.
Lemma days_of_ordinal d : valid_date d = true -> date_days d = (jan1 (d_year d) + ordinal d - 1)%Z.
Proof.
  intro V. apply valid_date_spec in V. unfold date_days.
  rewrite days_from_jan1, ordinal_days_before by apply V. lia.
Qed.

Theorem ordinal_first_last y :
  ordinal (mkDate y 1 1) = 1%Z /\ ordinal (mkDate y 12 31) = (if is_leap y then 366 else 365)%Z.
Proof. unfold ordinal. cbn [d_year d_month d_day]. destruct (is_leap y); split; reflexivity. Qed.
Lemma ordinal_le_len d : valid_date d = true -> (1 <= ordinal d <= year_len (d_year d))%Z.
Proof.
  intro V. apply valid_date_spec in V. destruct V as [M D]. rewrite ordinal_days_before.
  pose proof (days_before_bounds (d_year d) _ M). lia.
Qed.

Theorem next_day_valid d : valid_date d = true -> valid_date (next_day d) = true.
Proof.
  destruct d as [y m dd]. intro V. apply valid_date_spec in V. apply valid_date_spec. unfold next_day.
  cbn [d_year d_month d_day] in *.
  destruct (Z.ltb_spec dd (days_in_month y m)); [|destruct (Z.ltb_spec m 12)]; cbn [d_year d_month d_day].
  - lia.
  - pose proof (days_in_month_range y (m + 1)). lia.
  - pose proof (days_in_month_range (y + 1) 1). lia.
Qed.
Lemma next_day_ordinal d : valid_date d = true ->
  jan1 (d_year (next_day d)) + ordinal (next_day d) = jan1 (d_year d) + ordinal d + 1 /\
  (d_month d <> 12 \/ d_day d <> 31 -> d_year (next_day d) = d_year d).
Proof.
  destruct d as [y m dd]. intro V. apply valid_date_spec in V. rewrite !ordinal_days_before. unfold next_day.
  cbn [d_year d_month d_day] in *. pose proof (month_end y m (proj1 V)) as E.
  destruct (Z.ltb_spec dd (days_in_month y m)); [|destruct (Z.eqb_spec m 12) as [->|M]].
  - cbn [d_year d_month d_day]. lia.
  - change (days_in_month y 12) with 31 in *. change (12 <? 12) with false. cbn [d_year d_month d_day].
    rewrite jan1_next, days_before_jan. lia.
  - replace (m <? 12) with true by lia. cbn [d_year d_month d_day]. lia.
Qed.
Theorem ordinal_next d : valid_date d = true -> (d_month d <> 12 \/ d_day d <> 31)%Z ->
  ordinal (next_day d) = (ordinal d + 1)%Z.
Proof. intros V N. destruct (next_day_ordinal d V) as [E Y]. rewrite (Y N) in E. lia. Qed.
Theorem date_days_next d : valid_date d = true -> date_days (next_day d) = (date_days d + 1)%Z.
Proof.
  intro V. rewrite (days_of_ordinal d V), (days_of_ordinal _ (next_day_valid d V)).
  pose proof (proj1 (next_day_ordinal d V)). lia.
Qed.

Theorem epoch_is_day_zero_and_a_thursday : date_days (mkDate 1970 1 1) = 0%Z /\ wd_mon0 (mkDate 1970 1 1) = 3%Z.
Proof. vm_compute. split; reflexivity. Qed.

Lemma wd_range d : (0 <= wd_mon0 d < 7)%Z.
Proof. unfold wd_mon0. Z.div_mod_to_equations. lia. Qed.
Theorem weekday_next d : valid_date d = true -> wd_mon0 (next_day d) = ((wd_mon0 d + 1) mod 7)%Z.
Proof. intro V. unfold wd_mon0. rewrite (date_days_next d V). Z.div_mod_to_equations. lia. Qed.

Lemma weeks_in_year_range y : 52 <= weeks_in_year y <= 53.
Proof. unfold weeks_in_year. cbv zeta. match goal with |- _ <= (if ?b then _ else _) <= _ => destruct b end; lia. Qed.
Lemma week_number_range o w k : 1 <= o <= 366 -> 0 <= w < 7 -> 6 <= k <= 9 -> 0 <= (o - w + k) / 7 <= 53.
Proof. intros. Z.div_mod_to_equations. lia. Qed.
Theorem week_ranges d : valid_date d = true ->
  (0 <= sunday_week d <= 53 /\ 0 <= monday_week d <= 53 /\ 1 <= snd (iso_year_week d) <= 53)%Z.
Proof.
  intro V. pose proof (ordinal_le_len d V) as Ho. pose proof (year_len_range (d_year d)) as Hl. pose proof (wd_range d) as Hw.
  assert (Hr : 1 <= ordinal d <= 366) by lia. clear V Ho Hl.
  unfold sunday_week, monday_week, iso_year_week, wd_from_sunday. cbv zeta.
  replace (ordinal d + 10 - (wd_mon0 d + 1)) with (ordinal d - wd_mon0 d + 9) by lia.
  pose proof (week_number_range _ _ 9 Hr Hw ltac:(lia)) as Hi. pose proof (weeks_in_year_range (d_year d - 1)).
  set (w := (ordinal d - wd_mon0 d + 9) / 7) in *. clearbody w.
  repeat split; try (apply week_number_range; [exact Hr|try apply Z.mod_pos_bound|]; lia).
  all: destruct (Z.eqb_spec w 0); cbn [snd]; try lia.
  all: match goal with |- context [if ?b then _ else _] => destruct b end; cbn [snd]; lia.
Qed.

(* day 0 is a Thursday, so the Thursdays are the multiples of 7; weeks_in_year counts those of its year:
   the last of them lies in the week of that number, counted from 1 January *)
Lemma weeks_in_year_thursdays y T : (7 | T) -> jan1 y + year_len y - 7 <= T < jan1 y + year_len y ->
  7 * (weeks_in_year y - 1) <= T - jan1 y < 7 * weeks_in_year y.
Proof.
  intros [z ->] H. unfold weeks_in_year, wd_mon0, year_len in *. fold (jan1 y). cbv zeta.
  destruct (is_leap y); cbn [andb]; match goal with |- context [if ?b then _ else _] => destruct b eqn:E end;
    Z.div_mod_to_equations; lia.
Qed.

(* ISO 8601: the week-year of a day is the civil year that contains the Thursday of its week, and the week
   number counts the Thursdays of that year *)
Theorem iso_week_is_the_thursday_rule d : valid_date d = true ->
  let T := (date_days d - wd_mon0 d + 3)%Z in
  let Y := fst (iso_year_week d) in
  (jan1 Y <= T < jan1 (Y + 1))%Z /\ snd (iso_year_week d) = ((T - jan1 Y) / 7 + 1)%Z.
Proof.
  intro V. pose proof (ordinal_le_len d V) as Ho. pose proof (days_of_ordinal d V) as Hd.
  cbv zeta. unfold iso_year_week, wd_mon0. set (y := d_year d) in *. set (D := date_days d) in *.
  replace (ordinal d) with (D - jan1 y + 1) in * by lia. clear V Hd. clearbody y D.
  (* T is the Thursday of the week of D; the model's week number is q + 1, q the whole weeks from 1 January of y to T *)
  set (T := D - (D + 3) mod 7 + 3).
  replace (D - jan1 y + 1 + 10 - ((D + 3) mod 7 + 1)) with (T - jan1 y + 1 * 7) by (unfold T; lia).
  rewrite Z.div_add by discriminate.
  assert (HT : (7 | T) /\ T - 3 <= D <= T + 3)
    by (split; [exists ((D + 3) / 7)|]; unfold T; Z.div_mod_to_equations; lia).
  clearbody T. destruct HT as [HT HD]. set (q := (T - jan1 y) / 7).
  assert (Hq : 7 * q <= T - jan1 y < 7 * q + 7) by (unfold q; Z.div_mod_to_equations; lia).
  pose proof (jan1_next (y - 1)) as N0. replace (y - 1 + 1) with y in N0 by lia.
  pose proof (jan1_next y) as N1. pose proof (year_len_range (y - 1)). pose proof (year_len_range y).
  destruct (Z.eqb_spec (q + 1) 0); [|destruct (Z.eqb_spec (q + 1) 53); [destruct (Z.eqb_spec (weeks_in_year y) 52) as [W|W]|]];
    cbn [andb fst snd].
  - (* T is the last Thursday of year y - 1 *)
    replace (y - 1 + 1) with y by lia. pose proof (weeks_in_year_thursdays (y - 1) T HT ltac:(lia)).
    split; [lia|]. Z.div_mod_to_equations. lia.
  - (* T lies in year y + 1: in year y it would be the last Thursday, the 53rd *)
    assert (jan1 (y + 1) <= T).
    { apply Z.nlt_ge. intro L. pose proof (weeks_in_year_thursdays y T HT ltac:(lia)). lia. }
    pose proof (jan1_next (y + 1)). pose proof (year_len_range (y + 1)).
    split; [lia|]. rewrite Z.div_small by lia. reflexivity.
  - (* T lies in year y: otherwise T - 7 is the last Thursday of y, the 52nd *)
    assert (T < jan1 (y + 1)).
    { apply Z.nle_gt. intro L.
      pose proof (weeks_in_year_thursdays y (T - 7) (Z.divide_sub_r _ _ _ HT (Z.divide_refl 7)) ltac:(lia)). lia. }
    split; [lia|reflexivity].
  - split; [lia|reflexivity].
Qed.

Local Close Scope Z_scope.

Theorem datetime_order_is_chronological a b :
  scalar_cmp (SDateTime a) (SDateTime b) = Some (Z.compare (dt_instant a) (dt_instant b)) /\
  scalar_eq (SDateTime a) (SDateTime b) = Z.eqb (dt_instant a) (dt_instant b).
Proof. split; reflexivity. Qed.
Theorem offset_does_not_matter a b : dt_instant a = dt_instant b ->
  scalar_cmp (SDateTime a) (SDateTime b) = Some Eq /\ scalar_eq (SDateTime a) (SDateTime b) = true.
Proof. intro H. cbn [scalar_cmp scalar_eq]. rewrite H, Z.compare_refl, Z.eqb_refl. split; reflexivity. Qed.
Theorem instant_of_components t :
  dt_instant t = (unix_ts t * 1000000000 + dt_nano t)%Z.
Proof. unfold dt_instant, unix_ts. reflexivity. Qed.

Lemma parse_digits_rep0 k : forall acc, parse_digits (rep 48%N k) acc = Some (acc * 10 ^ Z.of_nat k)%Z.
Proof.
  induction k as [|k IH]; intro acc; [cbn; f_equal; lia|].
  cbn [rep repeat parse_digits]. change (is_digit 48%N) with true. cbn iota. fold (rep 48%N k). rewrite IH.
  f_equal. rewrite Nat2Z.inj_succ, Z.pow_succ_r by lia. change (Z.of_N (48 - 48)) with 0%Z. lia.
Qed.
Lemma forallb_rep (P : char -> bool) c n : P c = true -> forallb P (rep c n) = true.
Proof. intro H. induction n; [reflexivity|]. cbn [rep repeat forallb]. rewrite H. exact IHn. Qed.
Lemma pad_left_spec c : forall w s, pad_left c w s = rep c (w - length s) ++ s.
Proof.
  induction w as [|w IH]; intro s; cbn [pad_left].
  - destruct (Nat.leb 0 (length s)); reflexivity.
  - destruct (Nat.leb_spec (S w) (length s)) as [H|H].
    + replace (S w - length s) with 0 by lia. reflexivity.
    + rewrite IH. replace (S w - length s) with (S (w - length s)) by lia. reflexivity.
Qed.

Lemma zeros_numeral k v : (0 <= v)%Z ->
  let s := rep 48%N k ++ show_Z v in
  forallb is_digit s = true /\ parse_digits s 0%Z = Some v /\ length s = k + length (show_Z v).
Proof.
  intro H. rewrite (show_Z_nonneg v H). repeat split.
  - rewrite forallb_app, forallb_rep by reflexivity. apply digits_all. reflexivity.
  - rewrite parse_digits_app, parse_digits_rep0. cbn [Z.mul]. rewrite show_N_parse, Z2N.id by exact H. reflexivity.
  - unfold rep. rewrite app_length, repeat_length. reflexivity.
Qed.

Theorem numeric_directive_denotes width v w : (0 <= v)%Z ->
  let out := fmt_numeric flags0 width v w in
  parse_digits out 0%Z = Some v /\
  length out = Nat.max (match width with Some x => x | None => w end) (length (show_Z v)).
Proof.
  intros H out. unfold out, fmt_numeric, flags0, digits_of, sat_sub. cbn [use_pad pst pstyle_eqb].
  replace (v <? 0)%Z with false by lia. cbn [andb app]. rewrite Z.abs_eq by exact H.
  destruct (zeros_numeral (match width with Some x => x | None => w + 0 end - (length (show_Z v) + 0)) v H) as (_ & P & L).
  split; [exact P|]. rewrite L. destruct width; lia.
Qed.
Lemma div_pow10 a p q : (0 <= a < 10 ^ Z.of_nat (p + q))%Z -> (0 <= a / 10 ^ Z.of_nat p < 10 ^ Z.of_nat q)%Z.
Proof.
  intros [H0 H1]. rewrite Nat2Z.inj_add, Z.pow_add_r in H1 by apply Nat2Z.is_nonneg.
  assert (0 < 10 ^ Z.of_nat p)%Z by (apply Z.pow_pos_nonneg; [reflexivity|apply Nat2Z.is_nonneg]).
  split; [apply Z.div_pos; assumption|apply Z.div_lt_upper_bound; assumption].
Qed.
(* %L, %3N, %6N, %N ...: exactly the requested number of digits; up to nine they are the leading
   digits of the nanosecond fraction (truncated, with their leading zeros); beyond nine, zeros *)
Theorem fraction_directive ns n : (0 <= ns < 1000000000)%Z -> 1 <= n ->
  length (fmt_fraction ns n) = n /\
  parse_digits (fmt_fraction ns (Nat.min n 9)) 0%Z = Some (ns / 10 ^ Z.of_nat (9 - Nat.min n 9))%Z /\
  fmt_fraction ns n = fmt_fraction ns (Nat.min n 9) ++ rep 48%N (n - 9).
Proof.
  intros H Hn. unfold fmt_fraction. replace (Nat.min (Nat.min n 9) 9) with (Nat.min n 9) by lia.
  set (sh := Nat.min n 9).
  assert (Hs : 1 <= sh /\ 9 - sh + sh = 9 /\ sh - sh = 0 /\ n - sh = n - 9 /\ sh + (n - 9) = n) by (unfold sh; lia).
  clearbody sh. destruct Hs as (S1 & S9 & S0 & Sr & Sn). rewrite S0, Sr. cbn [rep repeat]. rewrite app_nil_r.
  assert (Hv := div_pow10 ns (9 - sh) sh). rewrite S9 in Hv. specialize (Hv H).
  set (v := (ns / 10 ^ Z.of_nat (9 - sh))%Z) in *. clearbody v.
  pose proof (show_Z_len v sh Hv S1) as Hl.
  rewrite pad_left_spec. destruct (zeros_numeral (sh - length (show_Z v)) v (proj1 Hv)) as (_ & P & L).
  repeat split; [|exact P].
  rewrite app_length, L. unfold rep. rewrite repeat_length. clear Hv P. lia.
Qed.

Lemma take_num_app x rest v : forallb is_digit x = true -> parse_digits x 0%Z = Some v ->
  take_num (length x) (x ++ rest) = Some (v, rest).
Proof.
  intros D P. unfold take_num.
  rewrite firstn_app, skipn_app, Nat.sub_diag, firstn_all, skipn_all. cbn [firstn skipn app].
  rewrite app_nil_r, Nat.eqb_refl, D, P. reflexivity.
Qed.
Lemma take_num_padz n v rest : (0 <= v < 10 ^ Z.of_nat n)%Z -> 1 <= n ->
  take_num n (padz n v ++ rest) = Some (v, rest).
Proof.
  intros H Hn. unfold padz. replace (v <? 0)%Z with false by lia. rewrite pad_left_spec.
  pose proof (show_Z_len v n H Hn) as Hl.
  destruct (zeros_numeral (n - length (show_Z v)) v ltac:(lia)) as (D & P & L).
  rewrite <- (take_num_app _ rest v D P), L. f_equal. lia.
Qed.
Lemma span_digits_app a c rest : forallb is_digit a = true -> is_digit c = false -> span_digits (a ++ c :: rest) = (a, c :: rest).
Proof.
  induction a as [|x a IH]; intros Ha Hc; cbn [app span_digits].
  - rewrite Hc. reflexivity.
  - cbn [forallb] in Ha. apply andb_true_iff in Ha as [Hx Ha]. rewrite Hx, (IH Ha Hc). reflexivity.
Qed.
Lemma strip_trailing_spec c s : exists k, s = strip_trailing c s ++ rep c k.
Proof.
  induction s as [|x t [k IH]]; [exists 0; reflexivity|]. cbn [strip_trailing].
  destruct (strip_trailing c t) as [|y t'] eqn:E.
  - cbn [app] in IH. destruct (N.eqb_spec x c) as [->|N].
    + exists (S k). rewrite IH at 1. reflexivity.
    + exists k. rewrite IH at 1. reflexivity.
  - exists k. rewrite IH at 1. reflexivity.
Qed.
Lemma fraction_digits ns : (0 < ns < 1000000000)%Z ->
  let a := strip_trailing 48%N (pad_left 48%N 9 (show_Z ns)) in
  forallb is_digit a = true /\ 1 <= length a <= 9 /\ scale9 (firstn 9 a) = ns.
Proof.
  intros H a. pose proof (show_Z_len ns 9 ltac:(lia) ltac:(lia)) as Hl.
  destruct (zeros_numeral (9 - length (show_Z ns)) ns ltac:(lia)) as (D9 & P9 & L9).
  rewrite <- pad_left_spec in D9, P9, L9.
  destruct (strip_trailing_spec 48%N (pad_left 48%N 9 (show_Z ns))) as [k Hk]. fold a in Hk.
  rewrite Hk in D9, P9, L9. clearbody a. clear Hk.
  rewrite forallb_app in D9. apply andb_true_iff in D9 as [Da _].
  unfold rep in L9. rewrite app_length, repeat_length in L9.
  rewrite parse_digits_app in P9. destruct (parse_digits a 0%Z) as [z|] eqn:Hz; [|discriminate].
  rewrite parse_digits_rep0 in P9. inversion P9 as [Hns].
  assert (La : 1 <= length a).
  { destruct a as [|x a']; [|cbn; lia]. cbn in Hz. inversion Hz; subst z. lia. }
  split; [exact Da|]. split; [lia|].
  rewrite firstn_all2 by lia. unfold scale9. rewrite Hz. replace (9 - length a) with k by lia. reflexivity.
Qed.

(* the fraction of the printed form read back: absent and read as 0, or the stripped digits scaled back *)
Lemma read_fraction ns frac rest : (0 <= ns < 1000000000)%Z ->
  frac = (if (ns =? 0)%Z then [] else 46%N :: strip_trailing 48%N (pad_left 48%N 9 (show_Z ns))) ->
  match frac ++ 32%N :: rest with
  | 46%N :: l' => let (ds, r) := span_digits l' in
                  if Nat.leb 1 (length ds) then (Some (scale9 (firstn 9 ds)), r) else (None, r)
  | _ => (Some 0%Z, frac ++ 32%N :: rest)
  end = (Some ns, 32%N :: rest).
Proof.
  intros H ->. destruct (Z.eqb_spec ns 0) as [->|Hn]; [reflexivity|].
  destruct (fraction_digits ns ltac:(lia)) as (Da & La & Sa). cbv zeta in Da, La, Sa.
  cbn [app]. rewrite span_digits_app by (exact Da || reflexivity).
  replace (Nat.leb 1 _) with true by (symmetry; apply Nat.leb_le, La). rewrite Sa. reflexivity.
Qed.

Definition printable (t : datetime) : Prop :=
  valid_dt t = true /\ (0 <= d_year (dt_date t) <= 9999)%Z /\
  (exists h m, 0 <= h < 100 /\ 0 <= m < 60 /\ Z.abs (dt_off t) = h * 3600 + m * 60)%Z.

Theorem display_parse_roundtrip t : printable t -> parse_default (show_datetime t) = Some t.
Proof.
  intros [V [Y [h [m [Hh [Hm Ho]]]]]].
  destruct t as [[y mo d] hh mi ss ns off]. cbn [dt_date dt_nano dt_off d_year] in *.
  assert (R : (1 <= mo /\ mo <= 12 /\ 1 <= d <= 31 /\ 0 <= hh < 24 /\ 0 <= mi < 60 /\ 0 <= ss < 60 /\ 0 <= ns < 1000000000)%Z).
  { pose proof (days_in_month_range y mo). unfold valid_dt, valid_date in V.
    cbn [dt_date dt_hour dt_min dt_sec dt_nano d_year d_month d_day] in V. lia. }
  unfold show_datetime, show_date, show_offset.
  cbn [dt_date dt_hour dt_min dt_sec dt_nano dt_off d_year d_month d_day].
  (* the offset is printed as a sign character sg and the two fields h and m *)
  replace (Z.abs off / 3600)%Z with h by (Z.div_mod_to_equations; lia).
  replace ((Z.abs off / 60) mod 60)%Z with m by (Z.div_mod_to_equations; lia).
  set (sg := if (off <? 0)%Z then 45%N else 43%N).
  assert (Hsg : ((sg =? 43) || (sg =? 45))%N = true /\ ((if (sg =? 45)%N then -1 else 1) * (h * 3600 + m * 60))%Z = off)
    by (unfold sg; destruct (Z.ltb_spec off 0); split; try reflexivity; cbn [N.eqb Pos.eqb]; lia).
  destruct Hsg as [Hs Hoff]. clearbody sg. clear Ho.
  rewrite <- !app_assoc. unfold parse_default.
  do 6 (rewrite take_num_padz by lia; cbn [app expect_c N.eqb Pos.eqb]).
  rewrite (read_fraction ns) by first [lia|reflexivity]. cbn [expect_c N.eqb Pos.eqb]. rewrite Hs.
  rewrite take_num_padz by lia. rewrite <- (app_nil_r (padz 2 m)), take_num_padz by lia.
  rewrite Hoff, V. replace (m <? 60)%Z with true by lia. reflexivity.
Qed.

Definition ascii (s : str) : bool := forallb (fun c => (c <? 128)%N) s.
Lemma ascii_app a b : ascii a = true -> ascii b = true -> ascii (a ++ b) = true.
Proof. apply forallb_app_i. Qed.
Lemma ascii_cons c s : (c <? 128)%N = true -> ascii s = true -> ascii (c :: s) = true.
Proof. exact (forallb_cons_i _ c s). Qed.
Lemma ascii_if (b : bool) x y : ascii x = true -> ascii y = true -> ascii (if b then x else y) = true.
Proof. destruct b; auto. Qed.
Lemma ascii_if_char (b : bool) (x y : char) :
  (x <? 128)%N = true -> (y <? 128)%N = true -> ((if b then x else y) <? 128)%N = true.
Proof. destruct b; auto. Qed.
Lemma ascii_rep c n : (c <? 128)%N = true -> ascii (rep c n) = true.
Proof. apply (forallb_rep (fun c => (c <? 128)%N)). Qed.
Lemma ascii_digits s : forallb is_digit s = true -> ascii s = true.
Proof. unfold ascii. rewrite !forallb_forall. intros H c Hc. specialize (H c Hc). unfold is_digit in H. lia. Qed.
Lemma ascii_show_Z z : ascii (show_Z z) = true.
Proof.
  destruct z as [|p|p]; [reflexivity| |apply ascii_cons; [reflexivity|]];
    apply ascii_digits, digits_all; reflexivity.
Qed.
Lemma ascii_pad_left c w s : (c <? 128)%N = true -> ascii s = true -> ascii (pad_left c w s) = true.
Proof. intros Hc Hs. rewrite pad_left_spec. apply ascii_app; [apply ascii_rep, Hc|exact Hs]. Qed.
Lemma ascii_padz w z : ascii (padz w z) = true.
Proof.
  unfold padz. destruct (z <? 0)%Z; [apply ascii_cons; [reflexivity|]|];
    apply ascii_pad_left; auto using ascii_show_Z.
Qed.
Lemma ascii_firstn n s : ascii s = true -> ascii (firstn n s) = true.
Proof. apply forallb_firstn. Qed.
Lemma ascii_upper_ok s : ascii s = true -> ascii (ascii_upper s) = true.
Proof.
  unfold ascii, ascii_upper. rewrite !forallb_forall. intros H c Hc.
  apply in_map_iff in Hc as (x & <- & Hx). specialize (H x Hx). destruct ((97 <=? x)%N && (x <=? 122)%N); lia.
Qed.
Lemma ascii_nth n l : forallb ascii l = true -> ascii (nth n l []) = true.
Proof.
  intro F. destruct (nth_in_or_default n l []) as [H | ->]; [|reflexivity].
  rewrite forallb_forall in F. apply F, H.
Qed.
Lemma alpha_padc_ascii f : (alpha_padc f <? 128)%N = true.
Proof. unfold alpha_padc. destruct (pst f); reflexivity. Qed.

Create HintDb ascii.
#[local] Hint Resolve ascii_app ascii_cons ascii_if ascii_if_char ascii_rep ascii_show_Z ascii_pad_left ascii_padz
  ascii_firstn ascii_upper_ok ascii_nth alpha_padc_ascii : ascii.
#[local] Hint Extern 1 (_ = true) => reflexivity : ascii.

Lemma fmt_numeric_ascii f w v p : ascii (fmt_numeric f w v p) = true.
Proof.
  unfold fmt_numeric. cbv zeta.
  assert ((match pst f with PSpace => 32 | _ => 48 end <? 128)%N = true) by (destruct (pst f); reflexivity).
  auto 8 with ascii.
Qed.
Lemma fmt_alpha_ascii f w s : ascii s = true -> ascii (fmt_alpha f w s) = true.
Proof. intro H. unfold fmt_alpha. cbv zeta. destruct w; auto 6 with ascii. Qed.
Lemma fmt_comp_ascii f w n s : ascii s = true -> ascii (fmt_comp f w n s) = true.
Proof. intro H. unfold fmt_comp. cbv zeta. destruct w; auto 6 with ascii. Qed.
Lemma fmt_literal_ascii f w c : (c <? 128)%N = true -> ascii (fmt_literal f w c) = true.
Proof. intro H. unfold fmt_literal. destruct w; auto 6 with ascii. Qed.
Lemma fmt_fraction_ascii ns n : ascii (fmt_fraction ns n) = true.
Proof. unfold fmt_fraction. cbv zeta. auto with ascii. Qed.
Lemma fmt_offset_ascii f w off a b : ascii (fmt_offset f w off a b) = true.
Proof. unfold fmt_offset, pad2. cbv zeta. auto 8 with ascii. Qed.
#[local] Hint Resolve fmt_numeric_ascii fmt_alpha_ascii fmt_comp_ascii fmt_literal_ascii fmt_fraction_ascii
  fmt_offset_ascii : ascii.

(* every character with a meaning after '%': flags, digits, modifiers, ':' and the directives *)
Definition known_chars : list N :=
  [45;95;48;94;35; 49;50;51;52;53;54;55;56;57; 69;79; 58;
   89;67;121;109;100;101;119;117;85;87;71;103;86;106;72;107;73;108;77;83;115;98;104;66;97;65;80;112;
   70;118;82;68;120;84;88;114;99;37;110;116;76;78;122;90]%N.
Definition known (c : N) : bool := existsb (N.eqb c) known_chars.
Lemma known_eqb c k : (c =? k)%N = true -> known k = true -> known c = true.
Proof. intro E. apply N.eqb_eq in E. subst. auto. Qed.
Lemma known_either c a b : ((c =? a) || (c =? b))%N = true -> known a = true -> known b = true -> known c = true.
Proof. intros E Ha Hb. apply orb_true_iff in E as [E|E]; eapply known_eqb; eauto. Qed.
Lemma not_known (c k : N) : known c = false -> known k = true -> (c =? k)%N = false.
Proof. intros H K. destruct (N.eqb_spec c k); [congruence|reflexivity]. Qed.

(* e is what [directive] consumed beyond the directive character itself *)
Definition dir_spec (c : char) (rest : str) (x : dres * str * str) : Prop :=
  match x with
  | (res, r, e) =>
      rest = e ++ r /\ (e = [] \/ c = 58%N) /\
      match res with
      | DOut s => ascii s = true /\ known c = true
      | DUnknown => True
      | DErr => False
      end
  end.
Lemma dir_out c rest s : known c = true -> ascii s = true -> dir_spec c rest (DOut s, rest, []).
Proof. repeat split; auto. Qed.

Lemma directive_colon t f w rest : dir_spec 58%N rest (directive t f w 58%N rest).
Proof.
  unfold directive. cbn [N.eqb Pos.eqb orb].
  destruct rest as [|x r]; [repeat split; auto|].
  assert (U : dir_spec 58%N (x :: r) (DUnknown, r, [x])) by (repeat split; auto).
  (* the literal patterns 122 and 58 are matches on the binary digits of x *)
  destruct x as [|p]; [exact U|]. repeat (destruct p as [p|p|]; try exact U); clear U.
  - repeat split; auto with ascii.
  - destruct r as [|y r']; [repeat split; auto|].
    assert (U : dir_spec 58%N (58%N :: y :: r') (DUnknown, r', [58%N; y])) by (repeat split; auto).
    destruct y as [|p]; [exact U|]. repeat (destruct p as [p|p|]; try exact U).
    repeat split; auto with ascii.
Qed.
Lemma dir_if c rest (b : bool) x y :
  (b = true -> dir_spec c rest x) -> dir_spec c rest y -> dir_spec c rest (if b then x else y).
Proof. destruct b; auto. Qed.
Lemma directive_spec t f w c rest : dir_spec c rest (directive t f w c rest).
Proof.
  destruct (N.eqb_spec c 58) as [->|N]; [apply directive_colon|].
  unfold directive, pad2, rpad2, month_name, weekday_name. cbv zeta.
  (* down the dispatch: a test that succeeds says which known character c is, and what is written is ASCII;
     the test for ':' cannot succeed here.  (refine: apply would retype the rest of the chain at every step) *)
  repeat (refine (dir_if _ _ _ _ _ _ _); [intro E;
    first [apply dir_out; [first [apply (known_eqb _ _ E)|apply (known_either _ _ _ E)]; reflexivity|auto 20 with ascii]
          |apply N.eqb_eq in E; contradiction]|]).
  repeat split; auto.
Qed.
Lemma directive_unknown t f w c rest : known c = false -> directive t f w c rest = (DUnknown, rest, []).
Proof.
  intro H. pose proof (directive_spec t f w c rest) as S.
  destruct (directive t f w c rest) as [[res r] e]. destruct S as (A & B & C).
  destruct B as [->| ->]; [|discriminate H]. cbn [app] in A. subst r.
  destruct res as [s| |]; [destruct C; congruence|reflexivity|contradiction].
Qed.

Lemma eat_flags_split l : forall f seen f' seen' l1, eat_flags l f seen = Some (f', seen', l1) -> seen ++ l = seen' ++ l1.
Proof.
  induction l as [|c t IH]; intros f seen f' seen' l1 H; cbn [eat_flags] in H; [discriminate|].
  repeat match type of H with (if ?b then _ else _) = _ =>
    destruct b; [apply IH in H; rewrite <- H, <- app_assoc; reflexivity|] end.
  inversion H; subst. reflexivity.
Qed.
Lemma span_digits_split l : forall a b, span_digits l = (a, b) -> l = a ++ b.
Proof.
  induction l as [|c t IH]; intros a b H; cbn [span_digits] in H; [inversion H; reflexivity|].
  destruct (is_digit c); [|inversion H; reflexivity].
  destruct (span_digits t) as [a' b'] eqn:E. inversion H; subst. rewrite (IH _ _ eq_refl). reflexivity.
Qed.
Lemma directive_step t f w c rest seen ds cs s r : cs <> [] ->
  match directive t f w c rest with
  | (DOut s0, r0, _) => Some (s0, r0)
  | (DUnknown, r0, extra) => Some (c_pct :: seen ++ ds ++ cs ++ extra, r0)
  | (DErr, _, _) => None
  end = Some (s, r) ->
  exists used, seen ++ ds ++ cs ++ rest = used ++ r /\ used <> [] /\ (ascii s = true \/ s = 37%N :: used).
Proof.
  intros Hcs H. pose proof (directive_spec t f w c rest) as S.
  destruct (directive t f w c rest) as [[res r'] e]. destruct S as (A & _ & C). subst rest.
  exists (seen ++ ds ++ cs ++ e). split; [|split].
  - destruct res; inversion H; subst; rewrite <- !app_assoc; reflexivity.
  - intro Z. apply app_eq_nil in Z as [_ Z]. apply app_eq_nil in Z as [_ Z]. apply app_eq_nil in Z as [Z _]. contradiction.
  - destruct res; [left|right|contradiction]; inversion H; subst; [apply C|reflexivity].
Qed.
Lemma after_percent_spec t l s r : after_percent t l = Some (s, r) ->
  exists used, l = used ++ r /\ used <> [] /\ (ascii s = true \/ s = 37%N :: used).
Proof.
  unfold after_percent. destruct (eat_flags l flags0 []) as [[[f seen] l1]|] eqn:E1; [|discriminate].
  apply eat_flags_split in E1. cbn [app] in E1. subst l.
  destruct (span_digits l1) as [ds l2] eqn:E2. apply span_digits_split in E2. subst l1.
  match goal with |- match ?ww with _ => _ end = _ -> _ => destruct ww as [w|]; [|discriminate] end.
  destruct l2 as [|c0 l3]; [discriminate|].
  destruct ((c0 =? 69)%N || (c0 =? 79)%N); [destruct l3 as [|c1 l4]; [discriminate|]|];
    intro H; apply directive_step in H; try discriminate; exact H.
Qed.
Lemma after_percent_len t l s r : after_percent t l = Some (s, r) -> length r < length l.
Proof.
  intro H. apply after_percent_spec in H as (u & -> & N & _). rewrite app_length.
  destruct u; [contradiction|cbn [length]; lia].
Qed.

(* any fuel above the length of the format gives the same result, since a directive consumes something *)
Lemma strftime_fuel_enough t : forall fuel fuel' l, length l < fuel -> length l < fuel' ->
  strftime_fuel fuel t l = strftime_fuel fuel' t l.
Proof.
  induction fuel as [|fu IH]; intros fuel' l H H'; [lia|]. destruct fuel' as [|fu']; [lia|].
  cbn [strftime_fuel]. destruct l as [|c r]; [reflexivity|]. cbn [length] in *.
  destruct (c =? 37)%N.
  - destruct (after_percent t r) as [[s r']|] eqn:E; [|reflexivity].
    apply after_percent_len in E. rewrite (IH fu' r') by lia. reflexivity.
  - rewrite (IH fu' r) by lia. reflexivity.
Qed.
Theorem strftime_literal_char t c rest : c <> 37%N ->
  strftime t (c :: rest) = (do o <- strftime t rest; Ok (c :: o)).
Proof.
  intro N. unfold strftime at 1. cbn [strftime_fuel].
  destruct (N.eqb_spec c 37); [contradiction|]. reflexivity.
Qed.
Theorem strftime_directive t l s r : after_percent t l = Some (s, r) ->
  strftime t (37%N :: l) = (do o <- strftime t r; Ok (s ++ o)).
Proof.
  intro E. unfold strftime at 1. cbn [strftime_fuel]. rewrite N.eqb_refl, E.
  apply after_percent_len in E. unfold strftime. rewrite (strftime_fuel_enough t _ (S (length r)) r) by (cbn [length]; lia). reflexivity.
Qed.
Theorem strftime_malformed t l : after_percent t l = None -> strftime t (37%N :: l) = Err EInvalidArgument.
Proof. intro E. unfold strftime. cbn [strftime_fuel]. rewrite N.eqb_refl, E. reflexivity. Qed.
(* a '%' at the very end is malformed (so is one followed only by flags, a width or a modifier: strftime_malformed) *)
Theorem trailing_percent_is_error t : strftime t [37%N] = Err EInvalidArgument.
Proof. apply strftime_malformed. reflexivity. Qed.

(* a property of every format and its result follows from the four equations.  The format is typed `list N`, as in
   the equations: written `str` the terms are equal only up to unfolding, and `rewrite` with an equation fails *)
Lemma strftime_ind t (P : str -> res str -> Prop) :
  P [] (Ok []) ->
  (forall c l, c <> 37%N -> P l (strftime t l) -> P (c :: l) (do o <- strftime t l; Ok (c :: o))) ->
  (forall l s r, after_percent t l = Some (s, r) -> P r (strftime t r) ->
     P (37%N :: l) (do o <- strftime t r; Ok (s ++ o))) ->
  (forall l, after_percent t l = None -> P (37%N :: l) (Err EInvalidArgument)) ->
  forall l : list N, P l (strftime t l).
Proof.
  intros Hnil Hlit Hdir Hbad l. induction l as [l IH] using (induction_ltof1 _ (@length N)). unfold ltof in IH.
  destruct l as [|c l]; [exact Hnil|].
  destruct (N.eq_dec c 37) as [->|N].
  - destruct (after_percent t l) as [[s r]|] eqn:E.
    + rewrite (strftime_directive _ _ _ _ E). apply Hdir; [exact E|].
      apply IH. cbn [length]. apply Nat.lt_lt_succ_r, (after_percent_len _ _ _ _ E).
    + rewrite (strftime_malformed _ _ E). apply Hbad, E.
  - rewrite (strftime_literal_char _ _ _ N). apply Hlit; [exact N|]. apply IH. cbn [length]. lia.
Qed.
Theorem strftime_total t fmt :
  (exists o, strftime t fmt = Ok o) \/ strftime t fmt = Err EInvalidArgument.
Proof.
  revert fmt. apply (strftime_ind t (fun _ x => (exists o, x = Ok o) \/ x = Err EInvalidArgument)).
  - left. eauto.
  - intros c l _ [[o ->]| ->]; [left; cbn [bind]; eauto|right; reflexivity].
  - intros l s r _ [[o ->]| ->]; [left; cbn [bind]; eauto|right; reflexivity].
  - right. reflexivity.
Qed.

Lemma unknown_not_digit c : known c = false -> is_digit c = false.
Proof.
  intro H. destruct (is_digit c) eqn:D; [|reflexivity]. unfold is_digit in D.
  assert (c = 48 \/ c = 49 \/ c = 50 \/ c = 51 \/ c = 52 \/ c = 53 \/ c = 54 \/ c = 55 \/ c = 56 \/ c = 57)%N as Hc by lia.
  repeat destruct Hc as [->|Hc]; try subst c; discriminate H.
Qed.
Theorem unknown_directive_echoed t c r : existsb (N.eqb c) known_chars = false ->
  after_percent t (c :: r) = Some ([37%N; c], r).
Proof.
  intro H. fold (known c) in H. unfold after_percent. cbn [eat_flags].
  rewrite (not_known c 45 H eq_refl), (not_known c 95 H eq_refl), (not_known c 48 H eq_refl),
    (not_known c 94 H eq_refl), (not_known c 35 H eq_refl).
  cbn [span_digits]. rewrite (unknown_not_digit c H).
  rewrite (not_known c 69 H eq_refl), (not_known c 79 H eq_refl). cbn [orb].
  rewrite (directive_unknown _ _ _ _ _ H). reflexivity.
Qed.
(* in particular every non-ASCII character: the case that used to cut a character in half *)
Theorem non_ascii_directive_echoed t c r : (128 <= c)%N -> after_percent t (c :: r) = Some ([37%N; c], r).
Proof.
  intro H. apply unknown_directive_echoed.
  destruct (existsb (N.eqb c) known_chars) eqn:E; [|reflexivity]. exfalso.
  apply existsb_exists in E. destruct E as [k [Hk Ek]]. apply N.eqb_eq in Ek. subst k.
  assert (F : ascii known_chars = true) by reflexivity.
  unfold ascii in F. rewrite forallb_forall in F. specialize (F c Hk). lia.
Qed.
