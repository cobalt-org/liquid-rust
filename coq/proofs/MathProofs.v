(* Proofs about model/Filters_math.v (property C15). *)
From Coq Require Import SpecFloat.
From LV Require Import Filters_math DecimalProofs.
Open Scope Z_scope.

Definition i64 (z : Z) : Prop := - 2 ^ 63 <= z <= 2 ^ 63 - 1.
Lemma in_i64_iff z : in_i64 z = true <-> i64 z.
Proof. unfold in_i64, i64, i64_min, i64_max. rewrite andb_true_iff, !Z.leb_le. tauto. Qed.
Lemma checked_some z r : checked z = Some r -> r = z /\ i64 r.
Proof. unfold checked. destruct (in_i64 z) eqn:E; [|discriminate]. intro H; inversion H; subst. split; [reflexivity|apply in_i64_iff; exact E]. Qed.
Lemma checked_none z : checked z = None -> ~ i64 z.
Proof. unfold checked. destruct (in_i64 z) eqn:E; [discriminate|]. intros _ H. apply in_i64_iff in H. congruence. Qed.

Lemma quot_bound M a b : b <> 0 -> - M <= a < M -> (a, b) <> (- M, -1) -> - M <= Z.quot a b < M.
Proof.
  intros Hb Ia Hm.
  destruct (Z.eq_dec b (-1)) as [->|B1]; [|destruct (Z.eq_dec b 1) as [->|B2]].
  - assert (a <> - M) by (intros ->; apply Hm; reflexivity).
    change (-1) with (- (1)). rewrite Z.quot_opp_r, Z.quot_1_r by lia. lia.
  - rewrite Z.quot_1_r. lia.
  - (* |b| >= 2: the quotient is at most half of a in absolute value *)
    assert (Z.abs (Z.quot a b) * 2 <= Z.abs a); [|lia].
    rewrite <- Z.quot_abs by exact Hb.
    pose proof (Z.quot_rem' (Z.abs a) (Z.abs b)). pose proof (Z.rem_nonneg (Z.abs a) (Z.abs b)).
    pose proof (Z.quot_pos (Z.abs a) (Z.abs b)). nia.
Qed.

Definition int (z : Z) := VScalar (SInt z).
Definition flt (f : spec_float) := VScalar (SFloat f).

Section P.
Variable O : oracle.
Notation mf := (math_filter O).

(* plus / minus / times on integer operands: the mathematical result when it fits, otherwise
   the IEEE result of the operands converted to doubles — never a wrapped integer *)
Lemma num2_checked (op : Z -> Z -> Z) fop a b : num2 O (fun x y => checked (op x y)) fop (SInt a) (SInt b) =
  if in_i64 (op a b) then Ok (int (op a b)) else Ok (flt (fop (f_of_Z a) (f_of_Z b))).
Proof. unfold num2, checked; cbn [to_integer]. destruct (in_i64 (op a b)); reflexivity. Qed.
Theorem plus_exact a b : mf FPlus (int a) [int b] =
  if in_i64 (a + b) then Ok (int (a + b)) else Ok (flt (f_add (f_of_Z a) (f_of_Z b))).
Proof. exact (num2_checked Z.add f_add a b). Qed.
Theorem minus_exact a b : mf FMinus (int a) [int b] =
  if in_i64 (a - b) then Ok (int (a - b)) else Ok (flt (f_sub (f_of_Z a) (f_of_Z b))).
Proof. exact (num2_checked Z.sub f_sub a b). Qed.
Theorem times_exact a b : mf FTimes (int a) [int b] =
  if in_i64 (a * b) then Ok (int (a * b)) else Ok (flt (f_mul (f_of_Z a) (f_of_Z b))).
Proof. exact (num2_checked Z.mul f_mul a b). Qed.
Theorem abs_exact a : mf FAbs (int a) [] =
  if in_i64 (Z.abs a) then Ok (int (Z.abs a)) else Ok (flt (f_abs (f_of_Z a))).
Proof. unfold math_filter, checked; simpl. destruct (in_i64 (Z.abs a)); reflexivity. Qed.
Theorem at_least_exact a b : mf FAtLeast (int a) [int b] = Ok (int (Z.max a b)).
Proof. reflexivity. Qed.
Theorem at_most_exact a b : mf FAtMost (int a) [int b] = Ok (int (Z.min a b)).
Proof. reflexivity. Qed.
Corollary integer_results_never_wrap f a b r : i64 a -> i64 b ->
  (f = FPlus \/ f = FMinus \/ f = FTimes) -> mf f (int a) [int b] = Ok (int r) ->
  r = (match f with FPlus => a + b | FMinus => a - b | _ => a * b end) /\ i64 r.
Proof.
  assert (G : forall z y, (if in_i64 z then Ok (int z) else Ok (flt y)) = Ok (int r) -> r = z /\ i64 r).
  { intros z y H. destruct (in_i64 z) eqn:E; [|discriminate]. injection H as <-. split; [reflexivity|apply in_i64_iff, E]. }
  intros _ _ [ -> | [ -> | -> ] ] H; [rewrite plus_exact in H|rewrite minus_exact in H|rewrite times_exact in H]; exact (G _ _ H).
Qed.

Theorem div_mod_law a b : b <> 0 -> i64 a -> i64 b -> (a, b) <> (- 2 ^ 63, -1) ->
  mf FDividedBy (int a) [int b] = Ok (int (Z.quot a b)) /\
  mf FModulo (int a) [int b] = Ok (int (Z.rem a b)) /\
  a = Z.quot a b * b + Z.rem a b /\ Z.abs (Z.rem a b) < Z.abs b /\ i64 (Z.quot a b) /\ i64 (Z.rem a b).
Proof.
  intros Hb Ia Ib Hm. unfold i64 in *.
  assert (Hz : (b =? 0) = false) by (apply Z.eqb_neq; exact Hb).
  pose proof (quot_bound (2 ^ 63) a b Hb ltac:(lia) Hm) as Hq.
  pose proof (Z.rem_bound_abs a b Hb) as Hr. pose proof (Z.quot_rem' a b) as E.
  assert (Iq : in_i64 (Z.quot a b) = true) by (apply in_i64_iff; unfold i64; lia).
  repeat split; try lia.
  - unfold math_filter, num2, zero_operand, checked; cbn [as_scalar int to_integer]. rewrite Hz, Iq. reflexivity.
  - unfold math_filter, num2, zero_operand; cbn [as_scalar int to_integer]. rewrite Hz. reflexivity.
Qed.
Theorem div_min_minus_one :
  mf FDividedBy (int (- 2 ^ 63)) [int (-1)] = Ok (flt (f_div (f_of_Z (- 2 ^ 63)) (f_of_Z (-1)))) /\
  mf FModulo (int (- 2 ^ 63)) [int (-1)] = Ok (int 0).
Proof. split; reflexivity. Qed.
Theorem div_by_zero_is_error input o : zero_operand O o = true ->
  (exists c, mf FDividedBy (VScalar input) [VScalar o] = Err c) /\ (exists c, mf FModulo (VScalar input) [VScalar o] = Err c).
Proof. intro H. unfold math_filter; simpl. rewrite H. split; eexists; reflexivity. Qed.
Example zero_operands_are_zero :
  zero_operand O (SInt 0) = true /\ zero_operand O (SFloat (S754_zero false)) = true /\ zero_operand O (SFloat (S754_zero true)) = true /\
  zero_operand O (SStr [48%N]) = true.
Proof. repeat split; reflexivity. Qed.

(* with a float operand the result is the IEEE-754 binary64 operation *)
Theorem float_path_is_ieee x y :
  mf FPlus (flt x) [flt y] = Ok (flt (SFadd 53 1024 x y)) /\
  mf FMinus (flt x) [flt y] = Ok (flt (SFsub 53 1024 x y)) /\
  mf FTimes (flt x) [flt y] = Ok (flt (SFmul 53 1024 x y)) /\
  (f_is_zero y = false -> mf FDividedBy (flt x) [flt y] = Ok (flt (SFdiv 53 1024 x y))).
Proof.
  repeat split; try reflexivity. intro H. unfold math_filter, zero_operand; simpl. rewrite H. reflexivity.
Qed.
Theorem mixed_path_is_ieee a y :
  mf FPlus (int a) [flt y] = Ok (flt (SFadd 53 1024 (f_of_Z a) y)) /\
  mf FTimes (flt y) [int a] = Ok (flt (SFmul 53 1024 y (f_of_Z a))).
Proof. split; reflexivity. Qed.
End P.

(* floor / ceil / round of the exact dyadic value v * 2^e, stated without real numbers *)
Theorem floor_spec v e : e < 0 -> let k := 2 ^ (- e) in let z := floor_d v e in z * k <= v < (z + 1) * k.
Proof.
  intros He k z. unfold z, floor_d. destruct (Z.leb_spec 0 e); [lia|]. fold k.
  assert (0 < k) by (apply Z.pow_pos_nonneg; lia).
  pose proof (Z.div_mod v k ltac:(lia)). pose proof (Z.mod_pos_bound v k ltac:(lia)). nia.
Qed.
Theorem ceil_spec v e : e < 0 -> let k := 2 ^ (- e) in let z := ceil_d v e in (z - 1) * k < v <= z * k.
Proof.
  intros He k z. unfold z, ceil_d. pose proof (floor_spec (- v) e He) as H. cbv zeta in H. fold k in H. nia.
Qed.
Theorem round_spec v e : e < 0 -> let k := 2 ^ (- e) in let z := round_d v e in
  2 * Z.abs (z * k - v) <= k /\ (2 * Z.abs (z * k - v) = k -> Z.abs v < Z.abs z * k).
Proof.
  intros He k z. unfold z, round_d. destruct (Z.leb_spec 0 e); [lia|]. fold k.
  assert (Hk : 0 < k) by (apply Z.pow_pos_nonneg; lia). clearbody k.
  (* 2|v| + k = 2k q + r with 0 <= r < 2k: q k is within k/2 of |v|, and on a tie (r = 0) above it;
     in each sign case this is linear in q * k *)
  pose proof (Z.div_mod (2 * Z.abs v + k) (2 * k) ltac:(lia)) as D.
  pose proof (Z.mod_pos_bound (2 * Z.abs v + k) (2 * k) ltac:(lia)) as M.
  assert (Hq : 0 <= (2 * Z.abs v + k) / (2 * k)) by (apply Z.div_pos; lia).
  generalize dependent ((2 * Z.abs v + k) / (2 * k)). generalize dependent ((2 * Z.abs v + k) mod (2 * k)).
  intros r M q D Hq.
  destruct (Z.sgn_spec v) as [[Hv ->]|[[Hv ->]|[Hv ->]]]; lia.
Qed.
Theorem integral_when_nonneg_exp v e : 0 <= e -> floor_d v e = v * 2 ^ e /\ ceil_d v e = v * 2 ^ e /\ round_d v e = v * 2 ^ e.
Proof.
  intro He. unfold ceil_d, floor_d, round_d. destruct (Z.leb_spec 0 e); [|lia]. repeat split; ring.
Qed.

Section F.
Variable O : oracle.
Theorem floor_ceil_round_filters s m e :
  let x := S754_finite s m e in let v := signed s m in
  math_filter O FFloor (VScalar (SFloat x)) [] = Ok (VScalar (SInt (clamp_i64 (floor_d v e)))) /\
  math_filter O FCeil (VScalar (SFloat x)) [] = Ok (VScalar (SInt (clamp_i64 (ceil_d v e)))) /\
  math_filter O FRound (VScalar (SFloat x)) [] = Ok (VScalar (SInt (clamp_i64 (round_d v e)))).
Proof. repeat split; reflexivity. Qed.
Theorem clamp_id z : i64 z -> clamp_i64 z = z.
Proof.
  unfold i64, clamp_i64, i64_min, i64_max. intro H.
  destruct (Z.ltb_spec z (- 2 ^ 63)); [lia|]. destruct (Z.ltb_spec (2 ^ 63 - 1) z); [lia|]. reflexivity.
Qed.
Theorem rounding_specials :
  math_filter O FFloor (VScalar (SFloat S754_nan)) [] = Ok (VScalar (SInt 0)) /\
  math_filter O FCeil (VScalar (SFloat (S754_infinity false))) [] = Ok (VScalar (SInt (2 ^ 63 - 1))) /\
  math_filter O FRound (VScalar (SFloat (S754_infinity true))) [] = Ok (VScalar (SInt (- 2 ^ 63))) /\
  math_filter O FRound (VScalar (SFloat (S754_zero true))) [] = Ok (VScalar (SInt 0)).
Proof. repeat split; reflexivity. Qed.
End F.

Section S.
Variable O : oracle.
Definition nstr (z : Z) := VScalar (SStr (show_Z z)).
Theorem numeric_strings_as_numbers a b : i64 a -> i64 b ->
  to_integer (SStr (show_Z a)) = Some a /\
  (in_i64 (a + b) = true -> math_filter O FPlus (nstr a) [nstr b] = Ok (VScalar (SInt (a + b)))) /\
  (in_i64 (a - b) = true -> math_filter O FMinus (nstr a) [nstr b] = Ok (VScalar (SInt (a - b)))) /\
  (in_i64 (a * b) = true -> math_filter O FTimes (nstr a) [VScalar (SInt b)] = Ok (VScalar (SInt (a * b)))) /\
  math_filter O FAtLeast (nstr a) [nstr b] = Ok (VScalar (SInt (Z.max a b))) /\
  math_filter O FModulo (VScalar (SInt a)) [nstr b] = math_filter O FModulo (VScalar (SInt a)) [VScalar (SInt b)].
Proof.
  intros Ia Ib. apply in_i64_iff in Ia, Ib.
  pose proof (parse_show_Z a Ia) as Pa. pose proof (parse_show_Z b Ib) as Pb.
  repeat split; try (intro H); unfold math_filter, num2, zero_operand, checked, nstr; simpl; rewrite ?Pa, ?Pb, ?H; reflexivity.
Qed.
End S.
