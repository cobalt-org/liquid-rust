(* What the standard library lacks about lists, and the first facts about the strings and association
   lists of model/Base.v.  Nothing here knows of values, filters or the evaluator. *)
From Coq Require Import Permutation.
From LV Require Import Base.

(* Quotient and remainder as named unknowns with the equation that ties them to n: after this a goal
   about n / b and n mod b is linear arithmetic over N. *)
Lemma N_div_mod_split n b : b <> 0%N -> exists q r, (n / b = q /\ n mod b = r /\ n = q * b + r /\ r < b)%N.
Proof.
  intro B. exists (n / b)%N, (n mod b)%N. repeat split; [rewrite N.mul_comm; apply N.div_mod'|apply N.mod_lt, B].
Qed.

Lemma Forall2_refl {A} (P : A -> A -> Prop) : (forall x, P x x) -> forall l, Forall2 P l l.
Proof. intros H l. induction l; constructor; auto. Qed.
Lemma Forall2_trans {A} (P : A -> A -> Prop) : (forall a b c, P a b -> P b c -> P a c) ->
  forall a b c, Forall2 P a b -> Forall2 P b c -> Forall2 P a c.
Proof. intros H a b c H1. revert c. induction H1; intros c H2; inversion H2; subst; constructor; eauto. Qed.
Lemma Forall2_length {A B} {R : A -> B -> Prop} {l l'} : Forall2 R l l' -> length l = length l'.
Proof. induction 1; simpl; congruence. Qed.
Lemma Forall2_in_l {A B} (R : A -> B -> Prop) l l' a : Forall2 R l l' -> In a l -> exists b, In b l' /\ R a b.
Proof.
  induction 1 as [|x y l l' Hxy H IH]; simpl; [tauto|]. intros [->|Hin]; [eauto|].
  destruct (IH Hin) as [b [Hb Hr]]; eauto.
Qed.
Lemma Forall2_flip {A B} (R : A -> B -> Prop) l l' : Forall2 R l l' -> Forall2 (fun b a => R a b) l' l.
Proof. induction 1; constructor; assumption. Qed.
Lemma Forall2_impl_In {A B} (R S : A -> B -> Prop) l l' :
  (forall a b, In a l -> In b l' -> R a b -> S a b) -> Forall2 R l l' -> Forall2 S l l'.
Proof.
  intros H F. induction F as [|a b l l' Hab F IH]; constructor; [apply H; simpl; auto|].
  apply IH. intros a' b' Ha Hb. apply H; simpl; auto.
Qed.
Lemma Forall2_map_r {A B} (R : A -> B -> Prop) (g : A -> B) l : (forall a, In a l -> R a (g a)) -> Forall2 R l (map g l).
Proof. induction l as [|a l IH]; intro H; constructor; [apply H; left; reflexivity|apply IH; intros; apply H; right; assumption]. Qed.

Lemma Forall2_app_split {A B} (P : A -> B -> Prop) l1 l2 l1' l2' :
  Forall2 P (l1 ++ l2) (l1' ++ l2') -> length l1' = length l1 -> Forall2 P l1 l1' /\ Forall2 P l2 l2'.
Proof.
  revert l1'; induction l1 as [|x l1 IH]; intros [|x' l1'] H L; try discriminate; [split; [constructor|exact H]|].
  inversion H; subst. injection L as L. destruct (IH l1') as [H1 H2]; auto.
Qed.
Lemma forallb_perm {A} (f : A -> bool) l l' : Permutation l l' -> forallb f l = forallb f l'.
Proof.
  induction 1; simpl; try congruence.
  - destruct (f y), (f x); reflexivity.
Qed.
Lemma forallb_ext {A} (f g : A -> bool) l : (forall a, f a = g a) -> forallb f l = forallb g l.
Proof. intro H. induction l as [|x l IH]; simpl; [reflexivity|]. rewrite H, IH. reflexivity. Qed.
Lemma firstn_incl {A} n (l : list A) : incl (firstn n l) l.
Proof. rewrite <- (firstn_skipn n l) at 2. apply incl_appl, incl_refl. Qed.
Lemma skipn_incl {A} n (l : list A) : incl (skipn n l) l.
Proof. rewrite <- (firstn_skipn n l) at 2. apply incl_appr, incl_refl. Qed.
Lemma forallb_incl {A} (p : A -> bool) a b : incl a b -> forallb p b = true -> forallb p a = true.
Proof. rewrite !forallb_forall. intros H Hb x Hx. apply Hb, H, Hx. Qed.
Lemma forallb_firstn {A} (p : A -> bool) n l : forallb p l = true -> forallb p (firstn n l) = true.
Proof. apply forallb_incl, firstn_incl. Qed.
Lemma forallb_skipn {A} (p : A -> bool) n l : forallb p l = true -> forallb p (skipn n l) = true.
Proof. apply forallb_incl, skipn_incl. Qed.
Lemma forallb_rev {A} (p : A -> bool) l : forallb p l = true -> forallb p (rev l) = true.
Proof. apply forallb_incl. intros x. apply in_rev. Qed.
Lemma forallb_cons_i {A} (p : A -> bool) x l : p x = true -> forallb p l = true -> forallb p (x :: l) = true.
Proof. intros Hx Hl. cbn [forallb]. rewrite Hx. exact Hl. Qed.
Lemma forallb_app_i {A} (p : A -> bool) a b : forallb p a = true -> forallb p b = true -> forallb p (a ++ b) = true.
Proof. intros Ha Hb. rewrite forallb_app, Ha. exact Hb. Qed.
Lemma forallb_filter {A} (p f : A -> bool) l : forallb p l = true -> forallb p (filter f l) = true.
Proof. apply forallb_incl, incl_filter. Qed.
Lemma forallb_tl {A} (p : A -> bool) l : forallb p l = true -> forallb p (tl l) = true.
Proof. exact (forallb_skipn p 1 l). Qed.
Lemma forallb_removelast {A} (p : A -> bool) l : forallb p l = true -> forallb p (removelast l) = true.
Proof. rewrite removelast_firstn_len. apply forallb_firstn. Qed.
Lemma forallb_map {A B} (p : A -> bool) (q : B -> bool) (f : A -> B) l :
  (forall x, p x = true -> q (f x) = true) -> forallb p l = true -> forallb q (map f l) = true.
Proof. rewrite !forallb_forall. intros Hf H y [x [<- Hx]]%in_map_iff. auto. Qed.
Lemma forallb_flat_map {A B} (p : A -> bool) (q : B -> bool) (f : A -> list B) l :
  (forall x, p x = true -> forallb q (f x) = true) -> forallb p l = true -> forallb q (flat_map f l) = true.
Proof.
  intro Hf. induction l as [|x t IH]; [reflexivity|]. intros [Hx Ht]%andb_prop.
  apply forallb_app_i; [exact (Hf x Hx)|exact (IH Ht)].
Qed.
Lemma forallb_Forall {A} (p : A -> bool) l : forallb p l = true <-> Forall (fun x => p x = true) l.
Proof. rewrite forallb_forall, Forall_forall. reflexivity. Qed.
Lemma fold_max_in {A} (f : A -> nat) a l : In a l -> f a <= fold_right (fun x m => Nat.max (f x) m) 0 l.
Proof. induction l as [|x l IH]; simpl; [tauto|]. intros [->|H]; [lia|]. specialize (IH H). lia. Qed.
Lemma skipn_min {A} n (l : list A) : skipn (Nat.min n (length l)) l = skipn n l.
Proof.
  destruct (Nat.le_ge_cases n (length l)) as [H|H]; [rewrite Nat.min_l by lia; reflexivity|].
  rewrite Nat.min_r by lia. rewrite !skipn_all2 by lia. reflexivity.
Qed.
Lemma firstn_plus {A} : forall n m (l : list A), firstn (n + m) l = firstn n l ++ firstn m (skipn n l).
Proof.
  induction n as [|n IH]; intros m l; [reflexivity|]. destruct l as [|x l]; [cbn; rewrite firstn_nil; reflexivity|].
  cbn [Nat.add firstn skipn app]. rewrite IH. reflexivity.
Qed.
Lemma skipn_skipn {A} : forall x y (l : list A), skipn x (skipn y l) = skipn (x + y) l.
Proof.
  intros x y. revert x. induction y as [|y IH]; intros x l; [rewrite Nat.add_0_r; reflexivity|].
  destruct l as [|a l]; [rewrite !skipn_nil; reflexivity|]. replace (x + S y) with (S (x + y)) by lia. cbn [skipn]. apply IH.
Qed.
Lemma rev_nil_inv {A} (l : list A) : rev l = [] -> l = [].
Proof. intro H. rewrite <- (rev_involutive l), H. reflexivity. Qed.
Lemma nth_error_rev {A} (l : list A) j : j < length l -> nth_error (rev l) j = nth_error l (length l - S j).
Proof.
  intro H. destruct (nth_error l (length l - S j)) eqn:E.
  - pose proof (nth_error_nth l (length l - S j) a E) as Hn.
    rewrite <- Hn. rewrite <- rev_nth by exact H. apply nth_error_nth'. rewrite rev_length. exact H.
  - apply nth_error_None in E. lia.
Qed.

Lemma str_eqb_spec (a b : str) : reflect (a = b) (str_eqb a b).
Proof.
  revert b; induction a as [|x a IH]; intros [|y b]; simpl; try (constructor; congruence).
  destruct (N.eqb_spec x y) as [E|E]; simpl.
  - destruct (IH b) as [E2|E2]; constructor; congruence.
  - constructor; congruence.
Qed.
Lemma str_eqb_refl a : str_eqb a a = true.
Proof. destruct (str_eqb_spec a a); congruence. Qed.
Lemma str_eqb_sym a b : str_eqb a b = str_eqb b a.
Proof. destruct (str_eqb_spec a b), (str_eqb_spec b a); congruence. Qed.

Lemma mem_str_in k l : mem_str k l = true <-> In k l.
Proof.
  induction l as [|x t IH]; simpl; [split; [discriminate|tauto]|].
  rewrite orb_true_iff, IH. destruct (str_eqb_spec k x) as [E|E]; split; intros [H|H]; auto; try discriminate.
Qed.

Lemma prefixb_split p t : prefixb p t = true -> t = p ++ skipn (length p) t.
Proof.
  revert t; induction p as [|a p IH]; intros t H; simpl in *; [reflexivity|].
  destruct t as [|b t]; [discriminate|]. apply andb_prop in H as [E H]. apply N.eqb_eq in E; subst.
  simpl. f_equal. apply IH; assumption.
Qed.

Section Assoc.
Context {A : Type}.
Implicit Types (o : list (str * A)).

Lemma lookup_in_keys k o : In k (keys o) <-> lookup k o <> None.
Proof.
  induction o as [|[y v] t IH]; simpl.
  - split; [intros []|intro H; apply H; reflexivity].
  - destruct (str_eqb_spec k y) as [E|E].
    + subst; split; [discriminate|auto].
    + rewrite <- IH. split; [intros [E'|H]; [symmetry in E'; contradiction|assumption]|auto].
Qed.
Lemma has_key_lookup k o : has_key k o = true <-> lookup k o <> None.
Proof. unfold has_key; destruct (lookup k o); split; congruence. Qed.
Lemma has_key_false k o : has_key k o = false <-> lookup k o = None.
Proof. unfold has_key; destruct (lookup k o); split; congruence. Qed.
Lemma lookup_upsert_same k (v : A) o : lookup k (upsert k v o) = Some v.
Proof.
  induction o as [|[y w] t IH]; simpl; [rewrite str_eqb_refl; reflexivity|].
  destruct (str_eqb_spec k y) as [E|E]; simpl; [rewrite str_eqb_refl; reflexivity|].
  destruct (str_eqb_spec k y); [contradiction|assumption].
Qed.
Lemma lookup_upsert_other k j (v : A) o : j <> k -> lookup j (upsert k v o) = lookup j o.
Proof.
  intro N. induction o as [|[y w] t IH]; simpl.
  - destruct (str_eqb_spec j k); [contradiction|reflexivity].
  - destruct (str_eqb_spec k y) as [E|E]; simpl.
    + subst. destruct (str_eqb_spec j y); [contradiction|reflexivity].
    + destruct (str_eqb_spec j y); [reflexivity|assumption].
Qed.
Lemma in_lookup k v o : NoDup (keys o) -> In (k, v) o -> lookup k o = Some v.
Proof.
  induction o as [|[k' v'] t IH]; simpl; intros Hn Hi; [contradiction|].
  inversion Hn as [|? ? Hnot Hnd]; subst. destruct Hi as [E|Hi].
  - inversion E; subst. rewrite str_eqb_refl; reflexivity.
  - destruct (str_eqb_spec k k') as [E|E];
      [subst; exfalso; apply Hnot; apply in_map_iff; exists (k', v); auto|auto].
Qed.
Lemma lookup_In k v o : lookup k o = Some v -> In (k, v) o.
Proof.
  induction o as [|[k' v'] t IH]; simpl; [discriminate|].
  destruct (str_eqb_spec k k'); intro H; [inversion H; subst; auto|auto].
Qed.
Lemma lookup_perm (l l' : list (str * A)) k : NoDup (keys l) -> Permutation l l' -> lookup k l = lookup k l'.
Proof.
  intros Hn Hp. assert (Hn' : NoDup (keys l')) by (eapply Permutation_NoDup; [apply Permutation_map; exact Hp|assumption]).
  destruct (lookup k l) as [v|] eqn:E.
  - apply lookup_In in E. symmetry. apply in_lookup; [assumption|]. eapply Permutation_in; eassumption.
  - destruct (lookup k l') as [v|] eqn:E'; [|reflexivity].
    apply lookup_In in E'. apply Permutation_sym in Hp.
    rewrite (in_lookup k v l Hn) in E; [discriminate|]. eapply Permutation_in; eassumption.
Qed.
Lemma upsert_fresh k (v : A) o : lookup k o = None -> upsert k v o = o ++ [(k, v)].
Proof.
  induction o as [|[y w] t IH]; cbn [lookup upsert app]; [reflexivity|].
  destruct (str_eqb k y); [discriminate|]. intro H. rewrite IH by exact H. reflexivity.
Qed.
End Assoc.
