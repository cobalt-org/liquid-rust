(* C11: value_eq is symmetric and (NaN excepted) reflexive, < and > are duals, == and the ordering are
   consistent, and no answer depends on the order in which an object's entries are stored or iterated.
   Proved of veq / vcmp at every fuel, then restated for value_eq, value_ne, value_cmp, <, <=, >, >=. *)
From Coq Require Import Permutation.
From LV Require Import Value BaseLemmas OrderLemmas.

Section Ind.
Variable P : value -> Prop.
Hypothesis Hs : forall s, P (VScalar s).
Hypothesis Ha : forall l, Forall P l -> P (VArray l).
Hypothesis Ho : forall l, Forall (fun kv => P (snd kv)) l -> P (VObject l).
Hypothesis Ht : forall s, P (VState s).
Hypothesis Hn : P VNil.
Fixpoint value_ind' (v : value) : P v :=
  match v with
  | VScalar s => Hs s
  | VArray l => Ha l ((fix go l : Forall P l :=
      match l with [] => Forall_nil _ | x :: t => Forall_cons _ (value_ind' x) (go t) end) l)
  | VObject l => Ho l ((fix go l : Forall (fun kv => P (snd kv)) l :=
      match l with [] => Forall_nil _ | x :: t => Forall_cons _ (value_ind' (snd x)) (go t) end) l)
  | VState s => Ht s
  | VNil => Hn
  end.
End Ind.

(* the values the property quantifies over: unique object keys, no `Truthy` marker (the
   parser never produces it), at any depth *)
Inductive wf : value -> Prop :=
| wf_s s : wf (VScalar s)
| wf_a l : Forall wf l -> wf (VArray l)
| wf_o l : NoDup (keys l) -> Forall (fun kv => wf (snd kv)) l -> wf (VObject l)
| wf_t s : s <> Truthy -> wf (VState s)
| wf_n : wf VNil.

(* wf as a boolean, so that a closed value is shown well-formed by evaluation (the example of props/C11) *)
Fixpoint good (v : value) : bool :=
  match v with
  | VArray l => forallb good l
  | VObject kvs => nodup_keys (map fst kvs) && forallb (fun kv => good (snd kv)) kvs
  | VState Truthy => false
  | _ => true
  end.
Lemma nodup_keys_NoDup l : nodup_keys l = true -> NoDup l.
Proof.
  induction l as [|k t IH]; simpl; intro H; [constructor|]. apply andb_true_iff in H as [H1 H2].
  constructor; [|auto]. intro Hin. apply mem_str_in in Hin. rewrite Hin in H1. discriminate.
Qed.
Lemma good_wf v : good v = true -> wf v.
Proof.
  induction v as [s|l IH|l IH|s|] using value_ind'; simpl; intro H; try constructor.
  - rewrite forallb_forall in H. rewrite Forall_forall in *. auto.
  - apply andb_true_iff in H as [H1 H2]. apply nodup_keys_NoDup; exact H1.
  - apply andb_true_iff in H as [H1 H2]. rewrite forallb_forall in H2. rewrite Forall_forall in *. auto.
  - destruct s; congruence.
Qed.

Lemma wf_arr l : wf (VArray l) -> forall v, In v l -> wf v.
Proof. intro W. inversion W as [|? F| | |]; subst. apply Forall_forall, F. Qed.
Lemma wf_obj l : wf (VObject l) -> NoDup (keys l) /\ forall kv, In kv l -> wf (snd kv).
Proof. intro W. inversion W as [| |? N F| |]; subst. split; [exact N|apply Forall_forall, F]. Qed.
Lemma wf_arr_lift (R S : value -> value -> Prop) x y : wf (VArray x) -> wf (VArray y) ->
  (forall u w, wf u -> wf w -> R u w -> S u w) -> Forall2 R x y -> Forall2 S x y.
Proof.
  intros Wx Wy H. apply Forall2_impl_In. intros u w Hu Hw.
  apply H; [apply (wf_arr _ Wx _ Hu)|apply (wf_arr _ Wy _ Hw)].
Qed.

Lemma date_cmp_antisym a b : date_cmp b a = CompOpp (date_cmp a b).
Proof.
  unfold date_cmp. rewrite (Z.compare_antisym (d_year a) (d_year b)), (Z.compare_antisym (d_month a) (d_month b)),
    (Z.compare_antisym (d_day a) (d_day b)).
  destruct (d_year a ?= d_year b)%Z, (d_month a ?= d_month b)%Z, (d_day a ?= d_day b)%Z; reflexivity.
Qed.
Lemma date_eqb_sym a b : date_eqb a b = date_eqb b a.
Proof. unfold date_eqb. rewrite (date_cmp_antisym a b). destruct (date_cmp a b); reflexivity. Qed.

(* Of the 36 pairs of kinds the definitions give ten an arm of their own (and scalar_eq a few more
   for booleans); cbn leaves the arguments of the arms alone, where simpl would unfold the date
   arithmetic and the int-to-float conversion in every case. *)
Lemma scalar_eq_sym a b : scalar_eq a b = scalar_eq b a.
Proof.
  destruct a as [x|x|x|x|x|x], b as [y|y|y|y|y|y]; cbn [scalar_eq]; try reflexivity;
    auto using Z.eqb_sym, f_eqb_sym, str_eqb_sym, date_eqb_sym.
  destruct x, y; reflexivity.
Qed.
Lemma scalar_cmp_dual a b : scalar_cmp b a = option_map CompOpp (scalar_cmp a b).
Proof.
  destruct a as [x|x|x|x|x|x], b as [y|y|y|y|y|y]; cbn [scalar_cmp option_map]; try reflexivity;
    try apply SFcompare_antisym; f_equal; auto using Z.compare_antisym, date_cmp_antisym, str_cmp_antisym.
  destruct x, y; reflexivity.
Qed.
(* on the pairs scalar_cmp orders, == is its answer Eq *)
Lemma scalar_eq_via_cmp a b :
  scalar_eq a b = match scalar_cmp a b with
                  | Some c => match c with Eq => true | _ => false end
                  | None => scalar_eq a b
                  end.
Proof.
  destruct a as [x|x|x|x|x|x], b as [y|y|y|y|y|y]; cbn [scalar_cmp scalar_eq]; try reflexivity;
    auto using Z.eqb_compare, f_eqb_via_cmp, str_eqb_compare.
  destruct x, y; reflexivity.
Qed.

Definition objarm (n : nat) (y : list (str * value)) (kv : str * value) : bool :=
  match lookup (fst kv) y with Some v => veq n v (snd kv) | None => false end.
Lemma veq_unfold_obj n x y : veq (S n) (VObject x) (VObject y) = Nat.eqb (length x) (length y) && forallb (objarm n y) x.
Proof. reflexivity. Qed.

(* a "view" restates == of two containers as Forall2 over their entries; the inductions below go through it *)
Lemma arr_view n x y : veq (S n) (VArray x) (VArray y) = true <-> Forall2 (fun u w => veq n u w = true) x y.
Proof.
  cbn [veq]. revert y; induction x as [|u x IH]; intros [|w y]; cbn [length Nat.eqb andb];
    try (split; [discriminate|intro F; inversion F]).
  - split; constructor.
  - split.
    + intro H. apply andb_prop in H as [L H]. apply andb_prop in H as [E Z].
      constructor; [exact E|]. apply IH. rewrite L, Z. reflexivity.
    + intro F. inversion F as [|? ? ? ? E F']; subst. apply IH in F'. apply andb_prop in F' as [L Z].
      rewrite L, E, Z. reflexivity.
Qed.

Definition kv_cmp (n : nat) (a b : str * value) : option comparison :=
  match str_cmp (fst a) (fst b) with Eq => vcmp n (snd a) (snd b) | c => Some c end.
Lemma vcmp_unfold n a b : vcmp (S n) a b =
  match a, b with
  | VScalar x, VScalar y => scalar_cmp x y
  | VArray x, VArray y => lex (vcmp n) x y
  | VObject x, VObject y => lex (kv_cmp n) (sort_kvs x) (sort_kvs y)
  | _, _ => None
  end.
Proof.
  destruct a as [p|x|x|s|], b as [q|y|y|t|]; try reflexivity. cbn [vcmp].
  generalize (sort_kvs y). induction (sort_kvs x) as [|[k u] l IH]; intros [|[j w] l']; try reflexivity.
  cbn [lex]. unfold kv_cmp at 1. cbn [fst snd]. rewrite <- IH. destruct (str_cmp k j); reflexivity.
Qed.
Lemma kv_cmp_eq n a b : kv_cmp n a b = Some Eq -> fst a = fst b /\ vcmp n (snd a) (snd b) = Some Eq.
Proof.
  unfold kv_cmp. destruct (str_cmp (fst a) (fst b)) eqn:E; try discriminate. split; [apply str_cmp_eq, E|assumption].
Qed.

Lemma wf_sorted l : wf (VObject l) -> forall kv, In kv (sort_kvs l) -> wf (snd kv).
Proof. intros W kv H. apply (wf_obj _ W), sort_kvs_in, H. Qed.
Lemma wf_sorted_lift (R S : str * value -> str * value -> Prop) x y : wf (VObject x) -> wf (VObject y) ->
  (forall a b, wf (snd a) -> wf (snd b) -> R a b -> S a b) ->
  Forall2 R (sort_kvs x) (sort_kvs y) -> Forall2 S (sort_kvs x) (sort_kvs y).
Proof.
  intros Wx Wy H. apply Forall2_impl_In. intros a b Ha Hb.
  apply H; [apply (wf_sorted _ Wx _ Ha)|apply (wf_sorted _ Wy _ Hb)].
Qed.

(* Two objects with unique keys are == exactly when their key-sorted entry lists agree entry by entry:
   same key, values == (at one fuel less, and in the order the object arm of veq calls them). *)
Definition kv_eq (n : nat) (a b : str * value) : Prop := fst a = fst b /\ veq n (snd b) (snd a) = true.
Lemma obj_view n x y : NoDup (keys x) -> NoDup (keys y) ->
  (veq (S n) (VObject x) (VObject y) = true <-> Forall2 (kv_eq n) (sort_kvs x) (sort_kvs y)).
Proof.
  intros Nx Ny. rewrite veq_unfold_obj, andb_true_iff, Nat.eqb_eq, forallb_forall. split.
  - intros [L H].
    (* y is x with each value replaced by its partner, up to order: sorting aligns the two *)
    set (g := fun kv : str * value => (fst kv, match lookup (fst kv) y with Some w => w | None => VNil end)).
    assert (Hg : forall kv, In kv x -> In (g kv) y /\ kv_eq n kv (g kv)).
    { intros [k u] Hin. specialize (H _ Hin). unfold objarm in H. unfold g, kv_eq. cbn [fst snd] in *.
      destruct (lookup k y) as [w|] eqn:E; [|discriminate]. split; [apply lookup_In, E|auto]. }
    assert (Nk : NoDup (keys (map g x))) by (unfold keys; rewrite map_map; exact Nx).
    rewrite <- (sort_kvs_canonical (map g x) y Nk).
    + rewrite sort_kvs_map by reflexivity. apply Forall2_map_r. intros kv Hin. apply Hg, sort_kvs_in, Hin.
    + apply NoDup_Permutation_bis; [apply (NoDup_map_inv _ _ Nk)|rewrite map_length, L; reflexivity|].
      intros kv Hkv. apply in_map_iff in Hkv as (a & <- & Hin). apply Hg, Hin.
  - intro F. split; [rewrite <- (sort_kvs_length x), <- (sort_kvs_length y); apply (Forall2_length F)|].
    intros [k u] Hin. destruct (Forall2_in_l _ _ _ _ F (proj2 (sort_kvs_in x _) Hin)) as ([j w] & Hw & K & E).
    cbn [fst snd] in K, E. subst j. apply (proj1 (sort_kvs_in y _)) in Hw.
    unfold objarm; cbn [fst snd]. rewrite (in_lookup _ _ _ Ny Hw). exact E.
Qed.

Lemma state_query_wf s v : s <> Truthy -> wf v -> True.
Proof. trivial. Qed.

Theorem veq_sym n : forall a b, wf a -> wf b -> veq n a b = veq n b a.
Proof.
  induction n as [|n IH]; intros a b Wa Wb; [reflexivity|].
  destruct a as [p|x|x|s|], b as [q|y|y|t|]; try reflexivity.
  - apply scalar_eq_sym.
  - (* either direction: flip the list of pairs, the elements being symmetric by the induction hypothesis *)
    assert (D : forall x y, wf (VArray x) -> wf (VArray y) ->
                Forall2 (fun u w => veq n u w = true) x y -> Forall2 (fun u w => veq n u w = true) y x).
    { clear - IH. intros x y Wx Wy F. apply Forall2_flip in F. revert F. apply (wf_arr_lift _ _ _ _ Wy Wx).
      intros w u Ww Wu E. rewrite IH; assumption. }
    apply eq_iff_eq_true. rewrite !arr_view. split; apply D; assumption.
  - (* the same over the key-sorted entry lists *)
    assert (D : forall x y, wf (VObject x) -> wf (VObject y) ->
                Forall2 (kv_eq n) (sort_kvs x) (sort_kvs y) -> Forall2 (kv_eq n) (sort_kvs y) (sort_kvs x)).
    { clear - IH. intros x y Wx Wy F. apply Forall2_flip in F. revert F. apply (wf_sorted_lift _ _ _ _ Wy Wx).
      intros b a Wb Wa [K E]. split; [symmetry; exact K|]. rewrite IH; assumption. }
    apply eq_iff_eq_true. rewrite !obj_view by (apply wf_obj; assumption). split; apply D; assumption.
  - inversion Wa; inversion Wb; subst. simpl. destruct s, t; try reflexivity; congruence.
Qed.

Theorem vcmp_dual n : forall a b, vcmp n b a = option_map CompOpp (vcmp n a b).
Proof.
  induction n as [|n IH]; intros a b; [reflexivity|]. rewrite !vcmp_unfold.
  destruct a as [p|x|x|s|], b as [q|y|y|t|]; try reflexivity.
  - apply scalar_cmp_dual.
  - apply lex_dual, IH.
  - apply lex_dual. intros [k u] [j w]. unfold kv_cmp; cbn [fst snd].
    rewrite (str_cmp_antisym k j). destruct (str_cmp k j); [apply IH|reflexivity..].
Qed.

Theorem vcmp_eq_veq n : forall a b, wf a -> wf b -> vcmp n a b = Some Eq -> veq n a b = true.
Proof.
  induction n as [|n IH]; intros a b Wa Wb; [discriminate|]. rewrite vcmp_unfold.
  destruct a as [p|x|x|s|], b as [q|y|y|t|]; try discriminate; intro H.
  - cbn [veq]. rewrite scalar_eq_via_cmp, H. reflexivity.
  - apply lex_eq in H. apply arr_view. revert H. apply (wf_arr_lift _ _ _ _ Wa Wb), IH.
  - apply lex_eq in H. apply obj_view; [apply (wf_obj _ Wa)|apply (wf_obj _ Wb)|].
    revert H. apply (wf_sorted_lift _ _ _ _ Wa Wb). intros a b Ha Hb E. apply kv_cmp_eq in E as [K E]. split; [exact K|].
    rewrite veq_sym by assumption. apply IH; assumption.
Qed.

Theorem veq_not_strict n : forall a b, wf a -> wf b -> veq n a b = true ->
  vcmp n a b = Some Eq \/ vcmp n a b = None.
Proof.
  induction n as [|n IH]; intros a b Wa Wb; [discriminate|]. rewrite vcmp_unfold.
  destruct a as [p|x|x|s|], b as [q|y|y|t|]; try (intros _; right; reflexivity); intro H.
  - cbn [veq] in H. rewrite scalar_eq_via_cmp in H. destruct (scalar_cmp p q) as [[]|]; auto; discriminate.
  - apply arr_view in H. apply lex_eq_or_none. revert H. apply (wf_arr_lift _ _ _ _ Wa Wb), IH.
  - apply obj_view in H; [|apply (wf_obj _ Wa)|apply (wf_obj _ Wb)]. apply lex_eq_or_none.
    revert H. apply (wf_sorted_lift _ _ _ _ Wa Wb). intros a b Ha Hb [K E]. unfold kv_cmp. rewrite K, str_cmp_refl.
    apply IH; try assumption. rewrite veq_sym; assumption.
Qed.

Fixpoint nonan (v : value) : bool :=
  match v with
  | VScalar (SFloat f) => negb (f_is_nan f)
  | VArray l => forallb nonan l
  | VObject kvs => forallb (fun kv => nonan (snd kv)) kvs
  | _ => true
  end.
Lemma scalar_eq_refl s : nonan (VScalar s) = true -> scalar_eq s s = true.
Proof.
  intro H. rewrite scalar_eq_via_cmp. destruct s as [x|x|x|x|x|x]; cbn [scalar_cmp].
  - rewrite Z.compare_refl. reflexivity.
  - unfold f_cmp. rewrite SFcompare_refl; [reflexivity|]. apply negb_true_iff, H.
  - destruct x; reflexivity.
  - rewrite Z.compare_refl. reflexivity.
  - unfold date_cmp. rewrite !Z.compare_refl. reflexivity.
  - rewrite str_cmp_refl. reflexivity.
Qed.

Theorem veq_refl n : forall a, wf a -> nonan a = true -> depth a <= n -> veq n a a = true.
Proof.
  induction n as [|n IH]; intros a Wa Hn Hd; [destruct a; simpl in Hd; lia|].
  destruct a as [p|x|x|s|].
  - apply scalar_eq_refl; exact Hn.
  - cbn [nonan depth] in Hn, Hd. rewrite forallb_forall in Hn.
    apply arr_view. rewrite <- (map_id x) at 2. apply Forall2_map_r.
    intros v Hv. apply IH; [apply (wf_arr _ Wa _ Hv)|apply (Hn _ Hv)|].
    pose proof (fold_max_in depth v x Hv). lia.
  - cbn [nonan depth] in Hn, Hd. rewrite forallb_forall in Hn.
    apply obj_view; try apply (wf_obj _ Wa). rewrite <- (map_id (sort_kvs x)) at 2. apply Forall2_map_r.
    intros a Ha. split; [reflexivity|]. pose proof (proj1 (sort_kvs_in x a) Ha) as Hin.
    apply IH; [apply (wf_sorted _ Wa _ Ha)|apply (Hn _ Hin)|].
    pose proof (fold_max_in (fun kv : str * value => depth (snd kv)) _ x Hin). lia.
  - inversion Wa; subst. simpl. destruct s; try reflexivity; congruence.
  - reflexivity.
Qed.

Lemma is_nil_l_perm {A} (l l' : list A) : Permutation l l' -> is_nil_l l = is_nil_l l'.
Proof. intro H. destruct l, l'; try reflexivity; [apply Permutation_nil in H|apply Permutation_sym, Permutation_nil in H]; discriminate. Qed.

Theorem veq_perm_l n x x' b : Permutation x x' -> veq n (VObject x) b = veq n (VObject x') b.
Proof.
  intro Hp. destruct n as [|n]; [reflexivity|].
  destruct b as [q|y|y|t|]; try reflexivity.
  - rewrite !veq_unfold_obj. rewrite (Permutation_length Hp). f_equal. apply forallb_perm; exact Hp.
  - simpl. destruct t; try reflexivity; apply is_nil_l_perm; exact Hp.
Qed.
Theorem veq_perm_r n a y y' : NoDup (keys y) -> Permutation y y' -> veq n a (VObject y) = veq n a (VObject y').
Proof.
  intros Hn Hp. destruct n as [|n]; [reflexivity|].
  destruct a as [q|x|x|t|]; try reflexivity.
  - rewrite !veq_unfold_obj. rewrite (Permutation_length Hp). f_equal.
    apply forallb_ext. intros kv. unfold objarm. rewrite (lookup_perm y y' (fst kv) Hn Hp). reflexivity.
  - simpl. destruct t; try reflexivity; apply is_nil_l_perm; exact Hp.
Qed.
Theorem vcmp_perm n x x' y y' : NoDup (keys x) -> NoDup (keys y) -> Permutation x x' -> Permutation y y' ->
  vcmp n (VObject x) (VObject y) = vcmp n (VObject x') (VObject y').
Proof.
  intros Nx Ny Px Py. destruct n as [|n]; [reflexivity|]. rewrite !vcmp_unfold.
  rewrite (sort_kvs_canonical x x' Nx Px), (sort_kvs_canonical y y' Ny Py). reflexivity.
Qed.

Theorem value_eq_sym a b : wf a -> wf b -> value_eq a b = value_eq b a.
Proof. intros. unfold value_eq. rewrite (Nat.add_comm (depth b)). apply veq_sym; assumption. Qed.
Theorem value_ne_negation a b : value_ne a b = negb (value_eq a b).
Proof. reflexivity. Qed.
Theorem value_cmp_dual a b : value_cmp b a = option_map CompOpp (value_cmp a b).
Proof. unfold value_cmp. rewrite (Nat.add_comm (depth b)). apply vcmp_dual. Qed.
Theorem lt_gt_dual a b : v_lt a b = v_gt b a /\ v_le a b = v_ge b a.
Proof. unfold v_lt, v_gt, v_le, v_ge. rewrite (value_cmp_dual a b). destruct (value_cmp a b) as [[]|]; split; reflexivity. Qed.
Theorem value_eq_not_strict a b : wf a -> wf b -> value_eq a b = true -> v_lt a b = false /\ v_gt a b = false.
Proof.
  intros Wa Wb H. unfold v_lt, v_gt, value_cmp. destruct (veq_not_strict _ a b Wa Wb H) as [E|E]; rewrite E; split; reflexivity.
Qed.
Theorem le_iff a b c : wf a -> wf b -> value_cmp a b = Some c ->
  v_le a b = (v_lt a b || value_eq a b) /\ v_ge a b = (v_gt a b || value_eq a b).
Proof.
  intros Wa Wb H. unfold v_le, v_lt, v_ge, v_gt. rewrite H.
  destruct (value_eq a b) eqn:E.
  - destruct (veq_not_strict _ a b Wa Wb E) as [E'|E']; unfold value_cmp in H; rewrite E' in H; inversion H; subst; split; reflexivity.
  - destruct c; try (split; reflexivity). unfold value_cmp in H. unfold value_eq in E. rewrite (vcmp_eq_veq _ a b Wa Wb H) in E. discriminate.
Qed.
Theorem value_eq_refl a : wf a -> nonan a = true -> value_eq a a = true.
Proof. intros. apply veq_refl; auto. lia. Qed.

(* the behaviour before the repair (commit "fix: value_cmp compares object entries in
   key order"): objects were zipped in hash-map iteration order, so the answer depended on
   how the operands were built *)
Module Pinned.
Fixpoint vcmp0 (a b : value) {struct a} : option comparison :=
  match a, b with
  | VScalar x, VScalar y => scalar_cmp x y
  | VArray x, VArray y =>
      (fix lex (x y : list value) : option comparison :=
         match x, y with
         | [], [] => Some Eq | [], _ :: _ => Some Lt | _ :: _, [] => Some Gt
         | u :: x', w :: y' => match vcmp0 u w with Some Eq => lex x' y' | r => r end
         end) x y
  | VObject x, VObject y =>
      (fix lex (x y : list (str * value)) : option comparison :=
         match x, y with
         | [], [] => Some Eq | [], _ :: _ => Some Lt | _ :: _, [] => Some Gt
         | (k, u) :: x', (j, w) :: y' =>
             match str_cmp k j with
             | Eq => match vcmp0 u w with Some Eq => lex x' y' | r => r end
             | c => Some c
             end
         end) x y
  | _, _ => None
  end.
Lemma order_dependent_refuted :
  exists x x' y, Permutation x x' /\ NoDup (keys x) /\ vcmp0 (VObject x) (VObject y) <> vcmp0 (VObject x') (VObject y).
Proof.
  exists [([97%N], VNil); ([98%N], VNil)], [([98%N], VNil); ([97%N], VNil)], [([97%N], VNil); ([98%N], VNil)].
  split; [apply perm_swap|]. split; [repeat constructor; simpl; intuition discriminate|]. vm_compute. discriminate.
Qed.
End Pinned.

(* the marker the hypotheses exclude: State::Truthy is neither reflexive nor symmetric *)
Lemma truthy_marker_asymmetric :
  value_eq (VState Empty) (VState Truthy) = true /\ value_eq (VState Truthy) (VState Empty) = false /\
  value_eq (VState Truthy) (VState Truthy) = false.
Proof. vm_compute. auto. Qed.
