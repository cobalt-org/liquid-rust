(* TreeShape.v — the children analysis on liquid's grammar (coq/gen/Grammar.v, regenerated on every run):
   the shape of the pair tree that crates/core/src/parser/parser.rs walks with
   `into_inner().next().expect(..)`, `unreachable!()` and `panic!("Expected ..")` (C01).  Then, for every
   text: the lax parse followed by the block parser of model/BlockParse.v finishes (C01), and the top-level
   elements tile the text, which is the concatenation of their texts (C03). *)
From LV Require Import BaseLemmas PegTree Grammar PegProofs TreeProofs.

(* fuel of the children analysis [abs] for the whole grammar; with too little of it [abs] answers None and
   [child_table] no longer evaluates to its statement *)
Definition K0 : nat := 60.
Notation wft := (wf_tree liquid_grammar K0).
Notation wff := (wf_forest liquid_grammar K0).

Lemma liquid_eoi_free : length liquid_grammar <= eoi_id.
Proof. apply Nat.leb_le. reflexivity. Qed.

Theorem parse_tree_wf f start s rest p F :
  parse_tree liquid_grammar liquid_ws f start s = Some (Some (rest, p, F)) -> wff F.
Proof. unfold parse_tree. apply wf_sound. exact liquid_eoi_free. Qed.
Theorem parse_tree_flat f start s :
  parse liquid_grammar liquid_ws f start s = flat_res (parse_tree liquid_grammar liquid_ws f start s).
Proof. unfold parse, parse_tree. apply ev_flat. Qed.

Inductive within : ttree -> ttree -> Prop :=
| w_here t : within t t
| w_below t k cs c : In c cs -> within t c -> within t (TNode k cs).
Lemma wff_in F c : wff F -> In c F -> wft c.
Proof. induction F as [|x F IH]; [intros _ []|]. cbn [wf_forest]. intros [H1 H2] [<-|H]; auto. Qed.
Lemma wf_within t u : within t u -> wft u -> wft t.
Proof.
  induction 1 as [|t k cs c Hin _ IH]; [auto|]. intro H. apply wf_tree_unfold in H. destruct H as [_ H].
  apply IH. eapply wff_in; eassumption.
Qed.

Definition literal_rules := [r_NilLiteral; r_EmptyLiteral; r_BlankLiteral; r_StringLiteral; r_FloatLiteral; r_IntegerLiteral; r_BooleanLiteral].
Definition tag_token_rules := [r_Range; r_FilterChain; r_Equals; r_NotEquals; r_LesserThanGreaterThan; r_GreaterThanEquals; r_LesserThanEquals;
                               r_GreaterThan; r_LesserThan; r_Assign; r_Comma; r_Colon].
Definition element_rules := [r_Expression; r_Tag; r_Raw; r_InvalidLiquid; eoi_id].
Definition leaf_rules := literal_rules ++ [r_Identifier; r_Raw; r_InvalidLiquid; eoi_id; r_Equals; r_NotEquals; r_LesserThanGreaterThan; r_GreaterThanEquals; r_LesserThanEquals;
                               r_GreaterThan; r_LesserThan; r_Assign; r_Comma; r_Colon].
Definition children_spec (n : nat) (cs : list nat) : Prop :=
  (n = r_Tag -> cs = [r_TagInner]) /\
  (n = r_TagInner -> exists more, cs = r_Identifier :: more /\ Forall (fun x => In x tag_token_rules) more) /\
  (n = r_Expression -> cs = [r_ExpressionInner]) /\
  (n = r_ExpressionInner -> cs = [r_FilterChain]) /\
  (n = r_FilterChain -> exists more, cs = r_Value :: more /\ Forall (fun x => x = r_Filter) more) /\
  (n = r_Filter -> exists more, cs = r_Identifier :: more /\ Forall (fun x => x = r_PositionalFilterArgument \/ x = r_KeywordFilterArgument) more) /\
  (n = r_PositionalFilterArgument -> cs = [r_Value]) /\
  (n = r_KeywordFilterArgument -> cs = [r_Identifier; r_Value]) /\
  (n = r_Value -> cs = [r_Literal] \/ cs = [r_Variable]) /\
  (n = r_Literal -> exists k, cs = [k] /\ In k literal_rules) /\
  (n = r_Variable -> exists more, cs = r_Identifier :: more /\ Forall (fun x => x = r_Identifier \/ x = r_Value) more) /\
  (n = r_Range -> cs = [r_Value; r_Value]) /\
  (n = r_LaxLiquidFile -> Forall (fun x => In x element_rules) cs) /\
  (n = r_LiquidFile -> Forall (fun x => In x [r_Expression; r_Tag; r_Raw; eoi_id]) cs) /\
  (In n leaf_rules -> cs = []).

Lemma mem_In x l : mem x l = true -> In x l.
Proof. intros (y & Hy & ->%Nat.eqb_eq)%existsb_exists. exact Hy. Qed.

Lemma sat_zero r l : sat (mkA 0 (Some 0) [] r) l -> l = [].
Proof. intros (_ & H & _). cbn in H. destruct l; [reflexivity|cbn in H; lia]. Qed.
Lemma sat_one p ps r l : sat (mkA 1 (Some 1) (p :: ps) r) l -> exists x, l = [x] /\ In x p.
Proof.
  intros (H1 & H2 & H3). cbn in H1, H2, H3. destruct l as [|x [|y l]]; cbn in H1, H2; try lia.
  exists x. split; [reflexivity|]. cbn in H3. apply mem_In, H3.
Qed.
Lemma sat_one_single n r l : sat (mkA 1 (Some 1) [[n]] r) l -> l = [n].
Proof. intros (x & -> & [<-|[]])%sat_one. reflexivity. Qed.
Lemma sat_two p q ps r l : sat (mkA 2 (Some 2) (p :: q :: ps) r) l -> exists x y, l = [x; y] /\ In x p /\ In y q.
Proof.
  intros (H1 & H2 & H3). cbn in H1, H2, H3. destruct l as [|x [|y [|z l]]]; cbn in H1, H2; try lia.
  exists x, y. cbn in H3. destruct H3 as (A & B & _). repeat split; auto using mem_In.
Qed.
Lemma sat_head p ps r l : sat (mkA 1 None (p :: ps) r) l -> exists x more, l = x :: more /\ In x p /\ sat_pos ps r more.
Proof.
  intros (H1 & _ & H3). cbn in H1, H3. destruct l as [|x l]; cbn in H1; try lia.
  exists x, l. cbn in H3. destruct H3 as (A & B). repeat split; auto using mem_In.
Qed.
Lemma sat_pos_nil_forall r l : sat_pos [] r l -> Forall (fun x => In x r) l.
Proof. induction l as [|x l IH]; [constructor|]. intros [H1 H2]. constructor; [apply mem_In, H1|exact (IH H2)]. Qed.
Lemma sat_any lo0 r l : sat (mkA lo0 None [] r) l -> Forall (fun x => In x r) l.
Proof. intros (_ & _ & H). exact (sat_pos_nil_forall _ _ H). Qed.

(* ca m n: [child_abs] on this grammar, what the children of a pair of rule n produced in mode m can be *)
Definition ca := child_abs liquid_grammar K0.

(* the analysis of the rules parser.rs takes apart, in the two modes in which a pair can be produced *)
Lemma child_table m : m <> Atomic ->
  ca m r_Tag = Some (mkA 1 (Some 1) [[r_TagInner]] []) /\
  ca m r_TagInner = Some (mkA 1 None [[r_Identifier]] tag_token_rules) /\
  ca m r_Expression = Some (mkA 1 (Some 1) [[r_ExpressionInner]] []) /\
  ca m r_ExpressionInner = Some (mkA 1 (Some 1) [[r_FilterChain]] []) /\
  ca m r_FilterChain = Some (mkA 1 None [[r_Value]] [r_Filter]) /\
  ca m r_Filter = Some (mkA 1 None [[r_Identifier]; [r_KeywordFilterArgument; r_PositionalFilterArgument]]
                            [r_KeywordFilterArgument; r_PositionalFilterArgument]) /\
  ca m r_PositionalFilterArgument = Some (mkA 1 (Some 1) [[r_Value]] []) /\
  ca m r_KeywordFilterArgument = Some (mkA 2 (Some 2) [[r_Identifier]; [r_Value]] []) /\
  ca m r_Value = Some (mkA 1 (Some 1) [[r_Literal; r_Variable]] []) /\
  ca m r_Literal = Some (mkA 1 (Some 1) [literal_rules] []) /\
  ca m r_Variable = Some (mkA 1 None [[r_Identifier]] [r_Identifier; r_Value]) /\
  ca m r_Range = Some (mkA 2 (Some 2) [[r_Value]; [r_Value]] []) /\
  ca m r_LaxLiquidFile = Some (mkA 1 None [] element_rules) /\
  ca m r_LiquidFile = Some (mkA 1 None [] [r_Expression; r_Tag; r_Raw; eoi_id]) /\
  map (ca m) leaf_rules = map (fun _ => Some a_empty) leaf_rules.
Proof. intro Hm. destruct m; [|contradiction|]; repeat apply conj; vm_compute; reflexivity. Qed.

Lemma local_children k cs : local_ok liquid_grammar K0 k cs -> children_spec (t_rule k) (roots cs).
Proof.
  intros (m & Hm & H). fold ca in H. generalize dependent (roots cs). intros l H.
  destruct (child_table m Hm) as (T1 & T2 & T3 & T4 & T5 & T6 & T7 & T8 & T9 & T10 & T11 & T12 & T13 & T14 & TL).
  unfold children_spec. repeat split; intro E; try rewrite E in H.
  - rewrite T1 in H. exact (sat_one_single _ _ _ H).
  - rewrite T2 in H. destruct (sat_head _ _ _ _ H) as (x & more & -> & [<-|[]] & Hp).
    exists more. split; [reflexivity|exact (sat_pos_nil_forall _ _ Hp)].
  - rewrite T3 in H. exact (sat_one_single _ _ _ H).
  - rewrite T4 in H. exact (sat_one_single _ _ _ H).
  - rewrite T5 in H. destruct (sat_head _ _ _ _ H) as (x & more & -> & [<-|[]] & Hp).
    exists more. split; [reflexivity|]. eapply Forall_impl; [|exact (sat_pos_nil_forall _ _ Hp)]. intros a [<-|[]]. reflexivity.
  - rewrite T6 in H. destruct (sat_head _ _ _ _ H) as (x & more & -> & [<-|[]] & Hp).
    exists more. split; [reflexivity|].
    apply (sat_pos_within _ _ [r_KeywordFilterArgument; r_PositionalFilterArgument]) in Hp; [|intros q [<-|[]]; apply subset_refl|apply subset_refl].
    eapply Forall_impl; [|exact (sat_pos_nil_forall _ _ Hp)]. intros a [<-|[<-|[]]]; auto.
  - rewrite T7 in H. exact (sat_one_single _ _ _ H).
  - rewrite T8 in H. destruct (sat_two _ _ _ _ _ H) as (x & y & -> & [<-|[]] & [<-|[]]). reflexivity.
  - rewrite T9 in H. destruct (sat_one _ _ _ _ H) as (x & -> & [<-|[<-|[]]]); auto.
  - rewrite T10 in H. destruct (sat_one _ _ _ _ H) as (x & -> & Hx). exists x. split; [reflexivity|exact Hx].
  - rewrite T11 in H. destruct (sat_head _ _ _ _ H) as (x & more & -> & [<-|[]] & Hp).
    exists more. split; [reflexivity|]. eapply Forall_impl; [|exact (sat_pos_nil_forall _ _ Hp)]. intros a [<-|[<-|[]]]; auto.
  - rewrite T12 in H. destruct (sat_two _ _ _ _ _ H) as (x & y & -> & [<-|[]] & [<-|[]]). reflexivity.
  - rewrite T13 in H. exact (sat_any _ _ _ H).
  - rewrite T14 in H. exact (sat_any _ _ _ H).
  - rewrite (proj1 map_ext_in_iff TL _ E) in H. exact (sat_zero _ _ H).
Qed.

(* every pair anywhere in a parse tree of this grammar has the children parser.rs expects *)
Theorem children_as_expected f start s rest p F t k cs :
  parse_tree liquid_grammar liquid_ws f start s = Some (Some (rest, p, F)) ->
  In t F -> within (TNode k cs) t -> children_spec (t_rule k) (roots cs).
Proof.
  intros HP Hin Hw. apply local_children. pose proof (parse_tree_wf _ _ _ _ _ _ HP) as W.
  pose proof (wf_within _ _ Hw (wff_in _ _ W Hin)) as Wt. apply wf_tree_unfold in Wt. exact (proj1 Wt).
Qed.

Fixpoint tiles (a b : nat) (F : list ttree) : Prop :=
  match F with
  | [] => a = b
  | TNode k _ :: t => t_start k = a /\ tiles (t_end k) b t
  end.
Fixpoint tiles_le (a b : nat) (F : list ttree) : Prop :=
  match F with
  | [] => a = b
  | TNode k _ :: t => t_start k = a /\ a <= t_end k /\ tiles_le (t_end k) b t
  end.
Lemma tiles_app a b c F G : tiles a b F -> tiles b c G -> tiles a c (F ++ G).
Proof.
  revert a. induction F as [|[k cs] F IH]; intros a HF HG; cbn [tiles app] in *; [subst; exact HG|].
  destruct HF as [H1 H2]. split; [exact H1|]. apply IH; assumption.
Qed.
Lemma tiles_le_tiles F : forall a b, tiles_le a b F -> tiles a b F.
Proof. induction F as [|[k cs] F IH]; intros a b H; cbn [tiles tiles_le] in *; [exact H|]. destruct H as (H1 & _ & H3). auto. Qed.
Lemma tiles_le_app a b c F G : tiles_le a b F -> tiles_le b c G -> tiles_le a c (F ++ G).
Proof.
  revert a. induction F as [|[k cs] F IH]; intros a HF HG; cbn [tiles_le app] in *; [subst; exact HG|].
  destruct HF as (H1 & H2 & H3). repeat split; auto.
Qed.
Lemma tiles_le_bounds a b F : tiles_le a b F -> a <= b.
Proof. revert a. induction F as [|[k cs] F IH]; intros a H; cbn [tiles_le] in H; [lia|]. destruct H as (H1 & H2 & H3). apply IH in H3. lia. Qed.

(* a forest that is a single pair over pos..p': what each item of a repetition has to yield for the items to tile *)
Definition one_span (pos p' : nat) (F : list ttree) : Prop := exists k cs, F = [TNode k cs] /\ t_start k = pos /\ t_end k = p'.

Section Spans.
Variables (g : grammar) (ws : option nat).
(* an expression all of whose matches are [one_span]; built up from references to non-silent rules (ref_one) *)
Definition spans_one (at_ : atom) (e : pe) : Prop :=
  forall f s pos s' p' F, evf g ws f at_ false e s pos = Some (Some (s', p', F)) -> one_span pos p' F.
Lemma ref_one at_ n r : nth_error g n = Some r -> is_silent (r_mod r) = false -> at_ <> Atomic -> spans_one at_ (PRef n).
Proof.
  intros Hn Hs Hat [|f] s pos s' p' F H; [discriminate|]. rewrite evf_ref, Hn, Hs, not_atomic in H by exact Hat.
  destruct (evf g ws f (mode_of (r_mod r) at_) false (r_body r) s pos) as [[[[s1 p1] ts]|]|]; try discriminate.
  injection H as <- <- <-. exists (mkTok n pos p1), ts. repeat split.
Qed.
Lemma silent_one at_ n r : nth_error g n = Some r -> is_silent (r_mod r) = true ->
  spans_one (mode_of (r_mod r) at_) (r_body r) -> spans_one at_ (PRef n).
Proof.
  intros Hn Hs Hb [|f] s pos s' p' F H; [discriminate|]. rewrite evf_ref, Hn, Hs, andb_false_r in H.
  destruct (evf g ws f (mode_of (r_mod r) at_) false (r_body r) s pos) as [[[[s1 p1] ts]|]|] eqn:E; try discriminate.
  injection H as <- <- <-. exact (Hb _ _ _ _ _ _ E).
Qed.
Lemma alt_one at_ a b : spans_one at_ a -> spans_one at_ b -> spans_one at_ (PAlt a b).
Proof.
  intros Ha Hb [|f] s pos s' p' F H; [discriminate|]. rewrite evf_alt in H.
  destruct (evf g ws f at_ false a s pos) as [[[[s1 p1] t1]|]|] eqn:E; try discriminate.
  - injection H as <- <- <-. exact (Ha _ _ _ _ _ _ E).
  - exact (Hb _ _ _ _ _ _ H).
Qed.
Lemma plus_tiles_le at_ a : at_ <> NonAtomic -> spans_one at_ a -> forall f s pos s' p' F,
  evf g ws f at_ false (PPlus a) s pos = Some (Some (s', p', F)) -> tiles_le pos p' F.
Proof.
  intros Hat Ha. induction f as [|f IH]; intros s pos s' p' F H; [discriminate|]. rewrite evf_plus in H.
  destruct (evf g ws f at_ false a s pos) as [[[[s1 p1] t1]|]|] eqn:E1; try discriminate.
  assert (T1 : tiles_le pos p1 t1).
  { destruct (Ha _ _ _ _ _ _ E1) as (k & cs & -> & <- & <-). apply evf_span in E1. cbn [tiles_le]. repeat split. apply E1. }
  rewrite skipt_id in H by exact Hat.
  destruct (evf g ws f at_ false (PPlus a) s1 p1) as [[[[s3 p3] t3]|]|] eqn:E3; try discriminate; injection H as <- <- <-.
  - exact (tiles_le_app _ _ _ _ _ T1 (IH _ _ _ _ _ E3)).
  - exact T1.
Qed.
Lemma star_tiles_le at_ a : at_ <> NonAtomic -> spans_one at_ a -> forall f s pos s' p' F,
  evf g ws f at_ false (PStar a) s pos = Some (Some (s', p', F)) -> tiles_le pos p' F.
Proof.
  intros Hat Ha [|f] s pos s' p' F H; [discriminate|]. rewrite evf_star in H.
  destruct (evf g ws f at_ false (PPlus a) s pos) as [[[[s1 p1] t1]|]|] eqn:E; try discriminate; injection H as <- <- <-.
  - exact (plus_tiles_le at_ a Hat Ha _ _ _ _ _ _ E).
  - reflexivity.
Qed.
End Spans.

Lemma item_one : spans_one liquid_grammar liquid_ws Compound lax_item.
Proof.
  apply alt_one.
  - eapply silent_one; [reflexivity..|]. cbn [r_mod r_body mode_of]. repeat apply alt_one.
    all: eapply ref_one; [reflexivity|reflexivity|discriminate].
  - eapply ref_one; [reflexivity|reflexivity|discriminate].
Qed.
Lemma lax_top f s rest p F : parse_tree liquid_grammar liquid_ws f r_LaxLiquidFile s = Some (Some (rest, p, F)) ->
  exists f' body, evf liquid_grammar liquid_ws f' Compound false (PStar lax_item) s 0 = Some (Some ([], p, body)) /\
                  F = [TNode (mkTok r_LaxLiquidFile 0 p) (body ++ [TNode (mkTok eoi_id p p) []])].
Proof.
  unfold parse_tree. destruct f as [|[|[|f]]]; try discriminate. rewrite evf_ref, rule_LaxLiquidFile.
  cbn [r_mod r_body mode_of is_silent negb andb atom_eqb]. rewrite evf_seq.
  change (evf liquid_grammar liquid_ws (S f) Compound false PSoi s 0) with (Some (Some (s, 0, @nil ttree))). cbn [skipt app]. rewrite evf_seq.
  destruct (evf liquid_grammar liquid_ws f Compound false (PStar lax_item) s 0) as [[[[s2 p2] body]|]|] eqn:Hstar; try discriminate.
  cbn [skipt]. destruct f as [|f]; [discriminate|]. cbn [evf orb atom_eqb]. destruct s2; [|discriminate].
  intros [= <- <- <-]. exists (S f), body. split; [exact Hstar|reflexivity].
Qed.
Lemma lax_body f s s' p body : evf liquid_grammar liquid_ws f Compound false (PStar lax_item) s 0 = Some (Some (s', p, body)) ->
  Forall (fun t => In (root t) [r_Expression; r_Tag; r_Raw; r_InvalidLiquid]) body /\ tiles_le 0 p body.
Proof.
  intro H. split; [|exact (star_tiles_le _ _ Compound _ ltac:(discriminate) item_one _ _ _ _ _ _ H)].
  assert (HA : abs liquid_grammar K0 Compound (PStar lax_item) =
               Some (mkA 0 None [] [r_Expression; r_Tag; r_Raw; r_InvalidLiquid])) by (vm_compute; reflexivity).
  pose proof (sat_any _ _ _ (abs_sound _ _ _ _ _ _ _ _ _ _ H _ _ HA)) as S. apply Forall_map in S. exact S.
Qed.

(* the top of the tree: one LaxLiquidFile pair over the whole text whose children are elements
   (Expression / Tag / Raw / InvalidLiquid) followed by exactly one EOI pair — the stream
   BlockProofs.blocks_total quantifies over *)
Theorem lax_tree_shape f s rest p F :
  parse_tree liquid_grammar liquid_ws f r_LaxLiquidFile s = Some (Some (rest, p, F)) ->
  exists body, F = [TNode (mkTok r_LaxLiquidFile 0 p) (body ++ [TNode (mkTok eoi_id p p) []])] /\
               Forall (fun t => In (root t) [r_Expression; r_Tag; r_Raw; r_InvalidLiquid]) body.
Proof. intros (f' & body & Hb%lax_body & ->)%lax_top. exists body. split; [reflexivity|exact (proj1 Hb)]. Qed.
Theorem lax_elements_tile f s rest p F :
  parse_tree liquid_grammar liquid_ws f r_LaxLiquidFile s = Some (Some (rest, p, F)) ->
  exists body, F = [TNode (mkTok r_LaxLiquidFile 0 p) (body ++ [TNode (mkTok eoi_id p p) []])] /\ tiles 0 p body.
Proof. intros (f' & body & Hb%lax_body & ->)%lax_top. exists body. split; [reflexivity|exact (tiles_le_tiles _ _ _ (proj2 Hb))]. Qed.

From LV Require Import PegTotal PegPos BlockParse BlockProofs.
Lemma lax_total_tree s : exists f, forall f', f <= f' ->
  exists body,
    parse_tree liquid_grammar liquid_ws f' r_LaxLiquidFile s =
      Some (Some ([], length s, [TNode (mkTok r_LaxLiquidFile 0 (length s)) (body ++ [TNode (mkTok eoi_id (length s) (length s)) []])])) /\
    Forall (fun t => In (root t) [r_Expression; r_Tag; r_Raw; r_InvalidLiquid]) body /\
    tiles_le 0 (length s) body.
Proof.
  destruct (lax_parse_total s) as [f Hf]. exists f. intros f' Hle. destruct (Hf f' Hle) as (p & ts & HP).
  pose proof (parse_end_is_length _ _ _ _ _ _ _ HP) as ->. apply ev_ok_tree in HP as [F HT]. fold (parse_tree liquid_grammar liquid_ws f' r_LaxLiquidFile s) in HT.
  destruct (lax_top _ _ _ _ _ HT) as (f0 & body & Hb%lax_body & ->). exists body. split; [exact HT|exact Hb].
Qed.

Definition eoi_node (t : ttree) : bool := Nat.eqb (root t) eoi_id.
(* any reading of the elements as BlockParse elements: which tag keyword, which verdict of its argument
   parser — arbitrary, as long as the EOI pair, and only it, is read as EEOI *)
Definition faithful (alpha : ttree -> elem) : Prop := forall t, alpha t = EEOI <-> eoi_node t = true.

Theorem parse_total_composed s : exists f, forall f', f <= f' ->
  exists p body,
    parse_tree liquid_grammar liquid_ws f' r_LaxLiquidFile s =
      Some (Some ([], p, [TNode (mkTok r_LaxLiquidFile 0 p) (body ++ [TNode (mkTok eoi_id p p) []])])) /\
    Forall (fun t => In (root t) [r_Expression; r_Tag; r_Raw; r_InvalidLiquid]) body /\
    forall alpha, faithful alpha ->
      parse_elements (map alpha (body ++ [TNode (mkTok eoi_id p p) []])) = POk \/
      parse_elements (map alpha (body ++ [TNode (mkTok eoi_id p p) []])) = PErr.
Proof.
  destruct (lax_total_tree s) as [f Hf]. exists f. intros f' Hle. destruct (Hf f' Hle) as (body & HT & Hbody & _).
  exists (length s), body. split; [exact HT|]. split; [exact Hbody|].
  intros alpha Ha. rewrite map_app. cbn [map].
  replace (alpha (TNode (mkTok eoi_id (length s) (length s)) [])) with EEOI by (symmetry; apply Ha; reflexivity).
  apply blocks_total. apply Forall_map. eapply Forall_impl; [|exact Hbody].
  (* an element read as EEOI would have the rule of the EOI pair, which is none of the four *)
  intros t Ht Hc%Ha%Nat.eqb_eq. cbv beta in Ht. rewrite Hc in Ht.
  cbn in Ht. repeat (destruct Ht as [Ht|Ht]; [discriminate Ht|]). destruct Ht.
Qed.

Theorem elements_tile_the_text s : exists f, forall f', f <= f' ->
  exists body,
    parse_tree liquid_grammar liquid_ws f' r_LaxLiquidFile s =
      Some (Some ([], length s, [TNode (mkTok r_LaxLiquidFile 0 (length s)) (body ++ [TNode (mkTok eoi_id (length s) (length s)) []])])) /\
    Forall (fun t => In (root t) [r_Expression; r_Tag; r_Raw; r_InvalidLiquid]) body /\
    tiles 0 (length s) body.
Proof.
  destruct (lax_total_tree s) as [f Hf]. exists f. intros f' Hle. destruct (Hf f' Hle) as (body & HT & Hbody & Ht).
  exists body. split; [exact HT|]. split; [exact Hbody|exact (tiles_le_tiles _ _ _ Ht)].
Qed.

Definition sub (s : str) (a b : nat) : str := firstn (b - a) (skipn a s).
Definition span_text (s : str) (t : ttree) : str := match t with TNode k _ => sub s (t_start k) (t_end k) end.
Lemma sub_split s a m b : a <= m -> m <= b -> sub s a m ++ sub s m b = sub s a b.
Proof.
  intros H1 H2. unfold sub. replace (b - a) with ((m - a) + (b - m)) by lia.
  rewrite firstn_plus, skipn_skipn. replace (m - a + a) with m by lia. reflexivity.
Qed.
Lemma tiles_concat s : forall F a b, tiles_le a b F -> concat (map (span_text s) F) = sub s a b.
Proof.
  induction F as [|[k cs] F IH]; intros a b H; cbn [tiles_le map concat span_text] in *.
  - subst. unfold sub. rewrite Nat.sub_diag. reflexivity.
  - destruct H as (H1 & H2 & H3). subst a. rewrite (IH _ _ H3). apply sub_split; [exact H2|exact (tiles_le_bounds _ _ _ H3)].
Qed.
Lemma sub_all s : sub s 0 (length s) = s.
Proof. unfold sub. cbn [skipn]. rewrite Nat.sub_0_r. apply firstn_all. Qed.

Theorem source_is_the_concatenation_of_its_elements s : exists f, forall f', f <= f' ->
  exists body,
    parse_tree liquid_grammar liquid_ws f' r_LaxLiquidFile s =
      Some (Some ([], length s, [TNode (mkTok r_LaxLiquidFile 0 (length s)) (body ++ [TNode (mkTok eoi_id (length s) (length s)) []])])) /\
    concat (map (span_text s) body) = s.
Proof.
  destruct (lax_total_tree s) as [f Hf]. exists f. intros f' Hle. destruct (Hf f' Hle) as (body & HT & _ & Ht).
  exists body. split; [exact HT|]. rewrite (tiles_concat s _ _ _ Ht). apply sub_all.
Qed.
