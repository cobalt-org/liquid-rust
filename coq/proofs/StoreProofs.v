(* Proofs about model/Partials.v (C09, C19, C20). *)
From LV Require Import BaseLemmas Partials.

Section P.
Variable src tmpl : Type.
Variable compile : src -> res tmpl.
Notation source := (source src).
Notation cache := (cache tmpl).

(* the lazy cache only ever holds compile results of the source: cache is a sub-graph of compile o source *)
Definition cache_inv (s : source) (c : cache) : Prop :=
  forall n r, lookup n c = Some r -> exists t, lookup n s = Some t /\ r = compile t.

Lemma cache_inv_empty s : cache_inv s [].
Proof. intros n r H. discriminate. Qed.
Lemma cache_inv_upsert s c n t : cache_inv s c -> lookup n s = Some t -> cache_inv s (upsert n (compile t) c).
Proof.
  intros H Hs m r Hm. destruct (str_eqb_spec m n) as [->|N].
  - rewrite lookup_upsert_same in Hm. inversion Hm; subst. eauto.
  - rewrite lookup_upsert_other in Hm by exact N. eauto.
Qed.
Theorem lazy_get_inv s c n : cache_inv s c ->
  fst (lazy_get src tmpl compile s c n) = ondemand_get src tmpl compile s n /\ cache_inv s (snd (lazy_get src tmpl compile s c n)).
Proof.
  intro H. unfold lazy_get, ondemand_get. destruct (lookup n c) as [r|] eqn:L.
  - destruct (H n r L) as [t [Hs ->]]. rewrite Hs. simpl. auto.
  - destruct (lookup n s) as [t|] eqn:Ls; simpl; [split; [reflexivity|apply cache_inv_upsert; assumption]|auto].
Qed.
Definition to_opt (r : res tmpl) : option tmpl := match r with Ok x => Some x | _ => None end.
Lemma lazy_try_get_get s c n : lazy_try_get src tmpl compile s c n =
  (to_opt (fst (lazy_get src tmpl compile s c n)), snd (lazy_get src tmpl compile s c n)).
Proof. unfold lazy_try_get, lazy_get. destruct (lookup n c); [reflexivity|]. destruct (lookup n s); reflexivity. Qed.
Lemma ondemand_try_get_get s n : ondemand_try_get src tmpl compile s n = to_opt (ondemand_get src tmpl compile s n).
Proof. unfold ondemand_try_get, ondemand_get. destruct (lookup n s); reflexivity. Qed.

Lemma lazy_step_inv s c q : cache_inv s c ->
  fst (lazy_step src tmpl compile s c q) = ondemand_answer src tmpl compile s q /\ cache_inv s (snd (lazy_step src tmpl compile s c q)).
Proof.
  intro H. destruct q as [n|n|n]; simpl; [|rewrite lazy_try_get_get, ondemand_try_get_get|auto];
    destruct (lazy_get_inv s c n H) as [E I]; destruct (lazy_get _ _ _ s c n); simpl in *; subst; auto.
Qed.

(* C19: for every sequence of calls the lazy store answers exactly like the on-demand store *)
Theorem lazy_equiv_ondemand s : forall qs c, cache_inv s c ->
  fst (lazy_run src tmpl compile s c qs) = map (ondemand_answer src tmpl compile s) qs /\
  cache_inv s (snd (lazy_run src tmpl compile s c qs)).
Proof.
  induction qs as [|q t IH]; intros c H; [simpl; auto|]. cbn [lazy_run].
  destruct (lazy_step_inv s c q H) as [E I]. destruct (lazy_step src tmpl compile s c q) as [a c']. simpl in *.
  destruct (IH c' I) as [E2 I2]. destruct (lazy_run src tmpl compile s c' t) as [r c'']. simpl in *. subst. auto.
Qed.
(* C19 also for the eager store (the names of an in-memory source are its keys) *)
Lemma lookup_eager_build s n : lookup n (eager_build src tmpl compile s) = option_map compile (lookup n s).
Proof. induction s as [|[k t] s IH]; simpl; [reflexivity|]. destruct (str_eqb n k); [reflexivity|exact IH]. Qed.
Theorem eager_equiv_ondemand s q : eager_answer src tmpl s (eager_build src tmpl compile s) q = ondemand_answer src tmpl compile s q.
Proof.
  destruct q as [n|n|n]; simpl; unfold eager_get, eager_try_get, ondemand_get, ondemand_try_get, contains, has_key;
    rewrite lookup_eager_build; destruct (lookup n s); reflexivity.
Qed.
Theorem build_never_fails s : exists st, eager_build src tmpl compile s = st /\ length st = length s.
Proof. eexists; split; [reflexivity|apply map_length]. Qed.
(* asked again, the store answers from what the first call left: the invariant is not needed for this *)
Theorem repeat_same_any s c n :
  let (r1, c1) := lazy_get src tmpl compile s c n in fst (lazy_get src tmpl compile s c1 n) = r1.
Proof.
  unfold lazy_get. destruct (lookup n c) as [r|] eqn:L; [rewrite L; reflexivity|].
  destruct (lookup n s) as [t|] eqn:Ls; cbv zeta; [rewrite lookup_upsert_same; reflexivity|rewrite L; reflexivity].
Qed.
Theorem repeat_same s c n : cache_inv s c ->
  let (r1, c1) := lazy_get src tmpl compile s c n in fst (lazy_get src tmpl compile s c1 n) = r1.
Proof. intros _. apply repeat_same_any. Qed.

(* C09: whatever was rendered before (any history of calls), the store seen by the next render is the
   same function of the sources *)
Theorem history_independent s : forall history c0, cache_inv s c0 -> forall n,
  fst (lazy_get src tmpl compile s (snd (lazy_run src tmpl compile s c0 history)) n) = ondemand_get src tmpl compile s n.
Proof.
  intros history c0 H n. destruct (lazy_equiv_ondemand s history c0 H) as [_ I]. apply (lazy_get_inv s _ n I).
Qed.

(* C20: every interleaving of the threads' calls gives every call the answer it would get alone *)
Theorem schedule_independent s : forall sched ts c, cache_inv s c ->
  Forall (fun e => snd e = ondemand_answer src tmpl compile s (snd (fst e))) (sched_run src tmpl compile s c ts sched).
Proof.
  induction sched as [|i rest IH]; intros ts c H; [constructor|]. cbn [sched_run].
  destruct (take_next ts i) as [[q ts']|]; [|apply IH; exact H].
  destruct (lazy_step_inv s c q H) as [E I]. destruct (lazy_step src tmpl compile s c q) as [a c']. simpl in *.
  constructor; [simpl; exact E|apply IH; exact I].
Qed.
End P.
