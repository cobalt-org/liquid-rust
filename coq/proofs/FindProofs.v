(* FindProofs.v — variable paths (under crates/core/src: model/find.rs, model/array/mod.rs convert_index,
   runtime/variable.rs) and the printing of literals: the lemmas behind props/C07.v. *)
From LV Require Import Eval BaseLemmas StackProofs DecimalProofs.
From Coq Require Import ZifyBool.

Definition norm_index (n : nat) (i : Z) : option nat :=
  if ((0 <=? i) && (i <? Z.of_nat n))%Z then Some (Z.to_nat i)
  else if ((- Z.of_nat n <=? i) && (i <? 0))%Z then Some (Z.to_nat (Z.of_nat n + i))
  else None.

Theorem arr_get_spec l i :
  arr_get l i = match norm_index (length l) i with Some j => nth_error l j | None => None end.
Proof.
  unfold arr_get, norm_index.
  destruct (0 <=? i)%Z eqn:H0; cbn [andb].
  - replace (i <? 0)%Z with false by lia.
    destruct (i <? Z.of_nat (length l))%Z eqn:H1; [reflexivity|].
    rewrite andb_false_r.
    apply nth_error_None. lia.
  - destruct (- Z.of_nat (length l) <=? i)%Z eqn:H1; cbn [andb].
    + replace (i <? 0)%Z with true by lia. replace (Z.of_nat (length l) + i <? 0)%Z with false by lia. reflexivity.
    + replace (Z.of_nat (length l) + i <? 0)%Z with true by lia. reflexivity.
Qed.

Theorem arr_get_nonneg l j : arr_get l (Z.of_nat j) = nth_error l j.
Proof.
  unfold arr_get. replace (0 <=? Z.of_nat j)%Z with true by lia.
  replace (Z.of_nat j <? 0)%Z with false by lia. rewrite Nat2Z.id. reflexivity.
Qed.

Theorem arr_get_neg l j : j < length l -> arr_get l (- Z.of_nat (S j)) = nth_error (rev l) j.
Proof.
  intro H. rewrite nth_error_rev by exact H. unfold arr_get.
  replace (0 <=? - Z.of_nat (S j))%Z with false by lia.
  replace (Z.of_nat (length l) + - Z.of_nat (S j) <? 0)%Z with false by lia.
  f_equal. lia.
Qed.

Theorem arr_get_in_range l i :
  arr_get l i <> None <-> (- Z.of_nat (length l) <= i < Z.of_nat (length l))%Z.
Proof.
  rewrite arr_get_spec. unfold norm_index.
  destruct ((0 <=? i)%Z && (i <? Z.of_nat (length l))%Z) eqn:H0.
  - split; [lia|]. intros _. apply nth_error_Some. lia.
  - destruct ((- Z.of_nat (length l) <=? i)%Z && (i <? 0)%Z) eqn:H1.
    + split; [lia|]. intros _. apply nth_error_Some. lia.
    + split; [congruence|lia].
Qed.

Theorem arr_get_out_of_range l i :
  (i < - Z.of_nat (length l) \/ Z.of_nat (length l) <= i)%Z -> arr_get l i = None.
Proof.
  intro H. destruct (arr_get l i) eqn:E; [|reflexivity].
  assert (arr_get l i <> None) as Hn by congruence. apply arr_get_in_range in Hn. lia.
Qed.
(* counting from the end, in and out of range alike *)
Theorem arr_get_from_end l j : arr_get l (- Z.of_nat (S j)) = nth_error (rev l) j.
Proof.
  destruct (Nat.lt_ge_cases j (length l)) as [H|H]; [apply arr_get_neg, H|].
  rewrite arr_get_out_of_range by lia. symmetry. apply nth_error_None. rewrite rev_length. exact H.
Qed.

Section F.
Variable O : oracle.
Local Notation augmented_get := (augmented_get O).
Local Notation try_find := (try_find O).
Local Notation find := (find O).
Local Notation kstr := (scalar_kstr O).

Theorem array_integer_index l idx i : to_integer idx = Some i -> augmented_get (VArray l) idx = arr_get l i.
Proof. intro H. cbn [Value.augmented_get]. rewrite H. reflexivity. Qed.

Lemma last_nth_error {A} (l : list A) : nth_error l (length l - 1) = hd_error (rev l).
Proof.
  destruct l as [|a l]; [reflexivity|].
  rewrite <- nth_error_rev by (simpl; lia). destruct (rev (a :: l)); reflexivity.
Qed.

Lemma array_named l idx : to_integer idx = None ->
  augmented_get (VArray l) idx =
  if str_eqb (kstr idx) k_first then hd_error l
  else if str_eqb (kstr idx) k_last then hd_error (rev l)
  else if str_eqb (kstr idx) k_size then Some (VScalar (SInt (Z.of_nat (length l)))) else None.
Proof.
  intro H. cbn [Value.augmented_get]. rewrite H.
  replace (arr_get l 0) with (hd_error l) by (destruct l; reflexivity).
  replace (arr_get l (-1)) with (hd_error (rev l)); [reflexivity|].
  destruct l as [|a l]; [reflexivity|]. change (-1)%Z with (- Z.of_nat 1)%Z. rewrite arr_get_neg by (simpl; lia).
  destruct (rev (a :: l)); reflexivity.
Qed.

Theorem array_first l idx : to_integer idx = None -> kstr idx = k_first ->
  augmented_get (VArray l) idx = hd_error l.
Proof. intros H K. rewrite array_named, K by exact H. reflexivity. Qed.

Theorem array_last l idx : to_integer idx = None -> kstr idx = k_last ->
  augmented_get (VArray l) idx = hd_error (rev l).
Proof. intros H K. rewrite array_named, K by exact H. reflexivity. Qed.

Theorem array_size l idx : to_integer idx = None -> kstr idx = k_size ->
  augmented_get (VArray l) idx = Some (VScalar (SInt (Z.of_nat (length l)))).
Proof. intros H K. rewrite array_named, K by exact H. reflexivity. Qed.

Theorem array_other l idx : to_integer idx = None ->
  kstr idx <> k_first -> kstr idx <> k_last -> kstr idx <> k_size -> augmented_get (VArray l) idx = None.
Proof.
  intros H K1 K2 K3. rewrite array_named by exact H.
  destruct (str_eqb_spec (kstr idx) k_first), (str_eqb_spec (kstr idx) k_last), (str_eqb_spec (kstr idx) k_size);
    try contradiction. reflexivity.
Qed.

(* an object's own member wins over the overlay, whatever its name *)
Theorem object_own_key kvs idx x : lookup (kstr idx) kvs = Some x -> augmented_get (VObject kvs) idx = Some x.
Proof. intro H. cbn [Value.augmented_get]. rewrite H. reflexivity. Qed.

Theorem object_size kvs idx : lookup (kstr idx) kvs = None -> kstr idx = k_size ->
  augmented_get (VObject kvs) idx = Some (VScalar (SInt (Z.of_nat (length kvs)))).
Proof. intros H K. cbn [Value.augmented_get]. rewrite H, K, str_eqb_refl. reflexivity. Qed.

Theorem object_missing kvs idx : lookup (kstr idx) kvs = None -> kstr idx <> k_size ->
  augmented_get (VObject kvs) idx = None.
Proof.
  intros H K. cbn [Value.augmented_get]. rewrite H.
  destruct (str_eqb_spec (kstr idx) k_size); [contradiction|reflexivity].
Qed.

Theorem scalar_step s idx :
  augmented_get (VScalar s) idx =
  if str_eqb (kstr idx) k_size then Some (VScalar (SInt (Z.of_nat (length (kstr s))))) else None.
Proof. reflexivity. Qed.

Theorem nil_has_no_members idx : augmented_get VNil idx = None.
Proof. reflexivity. Qed.

Theorem try_find_step v i p :
  try_find v (i :: p) = match augmented_get v i with Some c => try_find c p | None => None end.
Proof. reflexivity. Qed.

Theorem try_find_app v p q :
  try_find v (p ++ q) = match try_find v p with Some c => try_find c q | None => None end.
Proof.
  revert v; induction p as [|i p IH]; intro v; [reflexivity|].
  cbn [app Value.try_find]. destruct (augmented_get v i); [apply IH|reflexivity].
Qed.

Theorem missing_stays_missing v p q : try_find v p = None -> try_find v (p ++ q) = None.
Proof. intro H. rewrite try_find_app, H. reflexivity. Qed.

Theorem find_ok_iff v p r : find v p = Ok r <-> try_find v p = Some r.
Proof.
  unfold Value.find. destruct (try_find v p) eqn:E.
  - split; intro H; inversion H; reflexivity.
  - split; [|discriminate]. destruct (any_prefix_resolves O v p (length p - 1)); discriminate.
Qed.

Theorem find_missing_fails v p : try_find v p = None ->
  find v p = Err EUnknownIndex \/ find v p = Panic site_find_should_have_errored.
Proof.
  intro H. unfold Value.find. rewrite H.
  destruct (any_prefix_resolves O v p (length p - 1)); [left|right]; reflexivity.
Qed.

Variable ps : pstore.
Variable rec : template -> est -> sink -> out.

Fixpoint eval_indices (l : list expr) (s : est) : res (list scalar) :=
  match l with
  | [] => Ok []
  | i :: t => do v <- eval_expr O i s;
              match v with
              | VScalar x => do r <- eval_indices t s; Ok (x :: r)
              | _ => Err EOther
              end
  end.

Lemma eval_var_unfold root idx s :
  eval_expr O (EVar root idx) s = (do p <- eval_indices idx s; Stack.get O (root :: p) (fr s)).
Proof.
  cbn [eval_expr]. f_equal.
  induction idx as [|i t IH]; [reflexivity|].
  cbn [eval_indices]. destruct (eval_expr O i s) as [v| | |]; try reflexivity.
  destruct v; try reflexivity. cbn [bind] in *. rewrite IH. reflexivity.
Qed.

Lemma output_var root idx s k :
  rnode O ps rec (NOutput (EVar root idx, [])) s k =
  of_res (do p <- eval_indices idx s; Stack.get O (root :: p) (fr s)) s k (fun v => write_str s k (Value.render O v)).
Proof.
  cbn [rnode]. unfold eval_chain_e. cbn [fst snd]. rewrite eval_var_unfold.
  destruct (do p <- eval_indices idx s; Stack.get O (root :: p) (fr s)); reflexivity.
Qed.

Theorem output_resolved root idx s k p v :
  eval_indices idx s = Ok p -> Stack.try_get O (root :: p) (fr s) = Some v ->
  rnode O ps rec (NOutput (EVar root idx, [])) s k = write_str s k (Value.render O v).
Proof.
  intros Hp Hv%get_try_get_agree. rewrite output_var, Hp. cbn [bind]. rewrite Hv. reflexivity.
Qed.

Theorem output_missing_fails root idx s k p :
  eval_indices idx s = Ok p -> Stack.try_get O (root :: p) (fr s) = None ->
  exists c, rnode O ps rec (NOutput (EVar root idx, [])) s k = (OFail c, s, k).
Proof.
  intros Hp Hv. rewrite output_var, Hp. cbn [bind].
  pose proof (get_spec O (root :: p) (fr s)) as G. rewrite Hv in G. destruct G as [c ->]. exists c. reflexivity.
Qed.

Theorem output_bad_index_fails root idx s k c :
  eval_indices idx s = Err c -> rnode O ps rec (NOutput (EVar root idx, [])) s k = (OFail c, s, k).
Proof. intros Hp. rewrite output_var, Hp. reflexivity. Qed.

Theorem literal_prints v s k :
  rnode O ps rec (NOutput (ELit v, [])) s k = write_str s k (Value.render O v).
Proof. reflexivity. Qed.

Theorem integer_numeral_roundtrip z : in_i64 z = true ->
  parse_i64 (show_Z z) = Some z /\ Value.render O (VScalar (SInt z)) = show_Z z.
Proof. intro H. split; [apply parse_show_Z; exact H|reflexivity]. Qed.

Theorem parse_i64_in_range t z : parse_i64 t = Some z -> in_i64 z = true.
Proof.
  destruct t as [|c t]; [discriminate|]. rewrite parse_i64_sign.
  destruct (N.eqb c 45); [|destruct (N.eqb c 43)]; apply go_i64_in_range.
Qed.

Theorem string_bool_nil_literals x b :
  Value.render O (VScalar (SStr x)) = x /\ Value.render O (VScalar (SBool b)) = show_bool b /\ Value.render O VNil = [].
Proof. repeat split. Qed.
End F.
