(* BlockProofs.v — the block layer of C01: the block machinery (model/BlockParse.v) never panics and always
   finishes, for every element stream a pest parse can produce (any elements, then exactly one EOI). *)
From LV Require Import BlockParse.

Fixpoint live (it : list elem) : bool :=
  match it with
  | [] => false
  | EEOI :: t => match t with [] => true | _ => false end
  | _ :: t => live t
  end.
Definition wf (it : list elem) : Prop := it = [] \/ live it = true.

Lemma eoi_dec e : {e = EEOI} + {e <> EEOI}.
Proof. destruct e; (left; reflexivity) || (right; discriminate). Qed.
Lemma live_tail e t : e <> EEOI -> live (e :: t) = true -> live t = true.
Proof. destruct e; simpl; auto; congruence. Qed.
Lemma live_cons e t : e <> EEOI -> live t = true -> live (e :: t) = true.
Proof. destruct e; simpl; auto; congruence. Qed.
Lemma live_eoi t : live (EEOI :: t) = true -> t = [].
Proof. destruct t; [reflexivity|discriminate]. Qed.
Lemma live_app body : Forall (fun e => e <> EEOI) body -> live (body ++ [EEOI]) = true.
Proof. induction 1 as [|e b He _ IH]; [reflexivity|]. simpl app. apply live_cons; assumption. Qed.
Lemma live_inv it : live it = true -> exists body, it = body ++ [EEOI] /\ Forall (fun e => e <> EEOI) body.
Proof.
  induction it as [|e t IH]; [discriminate|]. intro L. destruct (eoi_dec e) as [->|Hne].
  - apply live_eoi in L as ->. exists []. split; [reflexivity|constructor].
  - destruct (IH (live_tail e t Hne L)) as (b & -> & F). exists (e :: b). split; [reflexivity|constructor; assumption].
Qed.
Lemma wf_nil : wf [].
Proof. left; reflexivity. Qed.
Lemma wf_live it : live it = true -> wf it.
Proof. right; assumption. Qed.
#[local] Hint Resolve wf_nil wf_live : core.

Lemma next_cases k s : wf (snd s) ->
  match next k s with
  | (NSome e, s') => e <> EEOI /\ live (snd s') = true /\ S (length (snd s')) = length (snd s)
  | (NNone, s') => fst s' = true /\ wf (snd s') /\ length (snd s') <= length (snd s)
  | (NErr, s') => wf (snd s') /\ length (snd s') <= length (snd s)
  end.
Proof.
  destruct s as [c it]. destruct c; simpl; [auto|].
  intros [->|L]; [simpl; auto|]. destruct it as [|e it]; [discriminate|].
  destruct e as [| ok | | name aok noargs | ]; simpl in *.
  1-3: split; [discriminate|auto].
  - destruct (kw_eqb name k); [destruct noargs|]; simpl; auto.
    split; [discriminate|auto].
  - apply live_eoi in L as ->. simpl; auto.
Qed.

(* What a loop (lfacts) and an element (efacts) may return when run with fuel n: never a panic; a loop answers POk only
   with its block closed; the iterator that is left is empty or live, and no longer than the one it started from; and
   the fuel runs out only if n is not above two units for each element of that one (and one more for an element).
   lok n f: the loop f keeps to this from every state whose iterator is empty or live. *)
Definition lfacts (n : nat) (s : st) (r : pres * st) : Prop :=
  fst r <> PPanic /\ (fst r = POk -> fst (snd r) = true) /\ wf (snd (snd r)) /\
  length (snd (snd r)) <= length (snd s) /\ (n > 2 * length (snd s) -> fst r <> PFuel).
Definition lok (n : nat) (f : st -> pres * st) : Prop := forall s, wf (snd s) -> lfacts n s (f s).
Definition efacts (n : nat) (it : list elem) (r : pres * list elem) : Prop :=
  fst r <> PPanic /\ wf (snd r) /\ length (snd r) <= length it /\ (n > 2 * length it + 1 -> fst r <> PFuel).

Lemma lfacts_err n s s' : wf (snd s') -> length (snd s') <= length (snd s) -> lfacts n s (PErr, s').
Proof. intros. unfold lfacts; simpl. repeat split; auto; discriminate. Qed.
Lemma lfacts_ok n s s' : fst s' = true -> wf (snd s') -> length (snd s') <= length (snd s) -> lfacts n s (POk, s').
Proof. intros. unfold lfacts; simpl. repeat split; auto; discriminate. Qed.
(* a result stays good for a longer stream, with the two units of fuel each further element needs *)
Lemma lfacts_mono n m s s' r :
  length (snd s') <= length (snd s) -> (m > 2 * length (snd s) -> n > 2 * length (snd s')) ->
  lfacts n s' r -> lfacts m s r.
Proof. intros Le Fu (A & B & C & D & E). unfold lfacts. repeat split; auto; lia. Qed.
Lemma efacts_done n it x : live it = true -> x <> PPanic -> x <> PFuel -> efacts n it (x, it).
Proof. unfold efacts; simpl. auto. Qed.
Lemma efacts_if n it (b : bool) x y : efacts n it x -> efacts n it y -> efacts n it (if b then x else y).
Proof. destruct b; auto. Qed.

Lemma escape_spec k n it : live it = true -> lfacts n (false, it) (escape k it).
Proof.
  induction it as [|e it IH]; [discriminate|]. intros L.
  assert (Hrec : e <> EEOI -> lfacts n (false, e :: it) (escape k it)).
  { intro Hne. eapply lfacts_mono; [| |apply IH, (live_tail e), L; exact Hne]; simpl; lia. }
  destruct e as [| ok | | name aok noargs | ]; simpl escape; try (apply Hrec; discriminate).
  - destruct (kw_eqb name k && noargs); [|apply Hrec; discriminate].
    apply lfacts_ok; simpl; auto.
  - apply live_eoi in L as ->. apply lfacts_err; simpl; auto.
Qed.

Lemma closing_spec n it r : lfacts n (false, it) r -> efacts (S n) it (closing r).
Proof.
  intros (A & B & C & D & E). destruct r as [x s]; simpl in *. unfold efacts.
  destruct x; simpl.
  - unfold assert_empty. rewrite (B eq_refl). repeat split; auto; discriminate.
  - repeat split; auto; discriminate.
  - congruence.
  - repeat split; auto; try discriminate. intro. apply E. lia.
Qed.

(* the last case of every loop of BlockParse.v, which writes this match out: the element is parsed and, if that went
   well, the loop f goes on ([apply go_on] below finds it by conversion) *)
Definition after_elem (n : nat) (e : elem) (c : bool) (it' : list elem) (f : st -> pres * st) : pres * st :=
  match parse_elem n e it' with
  | (POk, it'') => f (c, it'')
  | (r, it'') => (r, (c, it''))
  end.
(* comment throws the error of a nested tag away: `let _ = tag.parse(..)` *)
Definition after_swallow (n : nat) (e : elem) (c : bool) (it' : list elem) (f : st -> pres * st) : pres * st :=
  match parse_elem n e it' with
  | (PPanic, it'') => (PPanic, (c, it''))
  | (PFuel, it'') => (PFuel, (c, it''))
  | (_, it'') => f (c, it'')
  end.
(* covers after_elem and after_swallow: the loop either goes on after the element or ends with the element's failure *)
Lemma after_spec n e c it' f s res :
  S (length it') = length (snd s) -> efacts n it' (parse_elem n e it') -> lok n f ->
  (let (r, it'') := parse_elem n e it' in res = f (c, it'') \/ r <> POk /\ res = (r, (c, it''))) ->
  lfacts (S n) s res.
Proof.
  intros Len (A & B & C & D) Hf. destruct (parse_elem n e it') as [r it'']; simpl in *.
  intros [->|[NOk ->]].
  - eapply lfacts_mono; [| |apply Hf, B]; simpl; lia.
  - unfold lfacts; simpl. repeat split; auto; try lia. intro. apply D. lia.
Qed.

Lemma loop_spec n k s (body : elem -> st -> pres * st) :
  wf (snd s) ->
  (forall e s', e <> EEOI -> live (snd s') = true -> S (length (snd s')) = length (snd s) ->
     lfacts n s (body e s')) ->
  lfacts n s (let (r, s') := next k s in
              match r with NSome e => body e s' | NNone => (POk, s') | NErr => (PErr, s') end).
Proof.
  intros W Hbody. pose proof (next_cases k s W) as N.
  destruct (next k s) as [[e| |] s'].
  - destruct N as (Hne & L & Len). apply Hbody; assumption.
  - destruct N as (C & W' & Len). apply lfacts_ok; assumption.
  - destruct N as (W' & Len). apply lfacts_err; assumption.
Qed.

Section Step.
Variable n : nat.
Hypothesis IHe : forall e it, e <> EEOI -> live it = true -> efacts n it (parse_elem n e it).
Hypothesis IHa : forall k, lok n (parse_all n k).
Hypothesis IHi : forall c, lok n (parse_if n c).
Hypothesis IHl : forall k b, lok n (else_loop n k b).
Hypothesis IHk : lok n (case_loop n).
Hypothesis IHc : lok n (comment_loop n).

Section Element.
Variables (s s' : st).
Hypothesis L : live (snd s') = true.
Hypothesis Len : S (length (snd s')) = length (snd s).
Lemma reject : lfacts (S n) s (PErr, s').
Proof. apply lfacts_err; [auto|lia]. Qed.
Lemma hand_over f : lok n f -> lfacts (S n) s (f s').
Proof. intro Hf. eapply lfacts_mono; [| |apply Hf, wf_live, L]; lia. Qed.
End Element.
Lemma go_on s e c it' f : lok n f -> e <> EEOI -> live it' = true -> S (length it') = length (snd s) ->
  lfacts (S n) s (after_elem n e c it' f).
Proof.
  intros Hf Hne L Len. apply (after_spec n e c it' f); [exact Len|exact (IHe e it' Hne L)|exact Hf|].
  unfold after_elem. destruct (parse_elem n e it') as [[] it'']; auto; right; split; auto; discriminate.
Qed.
Lemma go_on_swallow s e c it' f : lok n f -> e <> EEOI -> live it' = true -> S (length it') = length (snd s) ->
  lfacts (S n) s (after_swallow n e c it' f).
Proof.
  intros Hf Hne L Len. apply (after_spec n e c it' f); [exact Len|exact (IHe e it' Hne L)|exact Hf|].
  unfold after_swallow. destruct (parse_elem n e it') as [[] it'']; auto; right; split; auto; discriminate.
Qed.

Lemma parse_elem_step e it : e <> EEOI -> live it = true -> efacts (S n) it (parse_elem (S n) e it).
Proof.
  intros Hne L.
  assert (Herr : efacts (S n) it (PErr, it)) by (apply efacts_done; [exact L|discriminate..]).
  (* a block tag whose arguments are accepted opens its loop *)
  assert (Hblock : forall (b : bool) f, lok n f ->
            efacts (S n) it (if b then closing (f (false, it)) else (PErr, it))).
  { intros b f Hf. apply efacts_if; [|exact Herr]. apply closing_spec, Hf, wf_live, L. }
  destruct e as [| ok | | name aok noargs | ]; [| | | |congruence]; cbn [parse_elem].
  - apply efacts_done; [exact L|discriminate..].
  - apply efacts_done; [exact L|destruct ok; discriminate..].
  - exact Herr.
  - destruct name; try exact Herr.
    + apply (Hblock true), IHi.
    + apply Hblock, IHl.
    + apply Hblock, IHl.
    + apply Hblock, IHa.
    + apply Hblock, IHk.
    + apply Hblock, IHa.
    + apply Hblock, IHa.
    + apply Hblock, IHc.
    + apply efacts_if; [|exact Herr]. apply closing_spec, escape_spec, L.
    + apply efacts_done; [exact L|destruct aok; discriminate..].
Qed.

Lemma parse_all_step k : lok (S n) (parse_all (S n) k).
Proof.
  intros s W. cbn [parse_all]. apply loop_spec; [exact W|].
  intros e [c it']. apply go_on, IHa.
Qed.

Lemma parse_if_step c : lok (S n) (parse_if (S n) c).
Proof.
  intros s W. cbn [parse_if]. destruct c; cbn [negb]; [|apply lfacts_err; auto].
  apply loop_spec; [exact W|]. intros e [c it'] Hne L Len.
  destruct e as [| ok | | name aok noargs | ]; try destruct name; try (apply go_on; auto).
  - (* else *) apply hand_over; auto.
  - (* elsif *) apply hand_over; auto.
Qed.

Lemma else_loop_step k b : lok (S n) (else_loop (S n) k b).
Proof.
  intros s W. cbn [else_loop]. apply loop_spec; [exact W|]. intros e [c it'] Hne L Len.
  destruct e as [| ok | | name aok noargs | ]; try destruct name; try (apply go_on; auto).
  destruct (b && negb noargs); [apply reject|apply hand_over]; auto.
Qed.

Lemma case_loop_step : lok (S n) (case_loop (S n)).
Proof.
  intros s W. cbn [case_loop]. apply loop_spec; [exact W|]. intros e [c it'] Hne L Len.
  destruct e as [| ok | | name aok noargs | ]; try destruct name; try (apply go_on; auto).
  - destruct noargs; [apply hand_over|apply reject]; auto.
  - destruct aok; [apply hand_over|apply reject]; auto.
Qed.

Lemma comment_loop_step : lok (S n) (comment_loop (S n)).
Proof.
  intros s W. cbn [comment_loop]. apply loop_spec; [exact W|]. intros e [c it'] Hne L Len.
  destruct e as [| ok | | name aok noargs | ]; try (apply hand_over; auto).
  destruct name; try (apply go_on_swallow; auto). apply go_on; auto.
Qed.
End Step.

Theorem blocks_inv : forall n,
  (forall e it, e <> EEOI -> live it = true -> efacts n it (parse_elem n e it)) /\
  (forall k, lok n (parse_all n k)) /\
  (forall c, lok n (parse_if n c)) /\
  (forall k b, lok n (else_loop n k b)) /\
  lok n (case_loop n) /\
  lok n (comment_loop n).
Proof.
  induction n as [|n (IHe & IHa & IHi & IHl & IHk & IHc)].
  - assert (Z : forall f, (forall s, f s = (PFuel, s)) -> lok 0 f).
    { intros f E s W. rewrite E. unfold lfacts; simpl. repeat split; auto; try discriminate; lia. }
    repeat apply conj; try (intros; apply Z; reflexivity).
    intros e it _ L. unfold efacts; simpl. repeat split; auto; try discriminate; lia.
  - repeat apply conj.
    + apply parse_elem_step; assumption.
    + apply parse_all_step; assumption.
    + apply parse_if_step; assumption.
    + apply else_loop_step; assumption.
    + apply case_loop_step; assumption.
    + apply comment_loop_step; assumption.
Qed.

Lemma top_step n e it : e <> EEOI ->
  top (S n) (e :: it) = match parse_elem n e it with (POk, it') => top n it' | (r, _) => r end.
Proof. destruct e; [reflexivity..|congruence]. Qed.

Lemma top_total : forall n it, wf it -> top n it <> PPanic /\ (n > 2 * length it -> top n it <> PFuel).
Proof.
  induction n as [|n IH]; intros it W; [split; [discriminate|lia]|].
  destruct it as [|e it]; [split; discriminate|].
  destruct W as [W|L]; [discriminate|].
  destruct (eoi_dec e) as [->|Hne]; [split; discriminate|]. rewrite (top_step n e it Hne).
  destruct (proj1 (blocks_inv n) e it Hne (live_tail e it Hne L)) as (A & B & C & D).
  destruct (parse_elem n e it) as [r it'']; simpl in A, B, C, D.
  destruct (IH it'' B) as (I1 & I2).
  destruct r; [|split; discriminate|congruence|]; simpl length.
  - split; [exact I1|intro; apply I2; lia].
  - split; [discriminate|intro; apply D; lia].
Qed.

Theorem blocks_total body :
  Forall (fun e => e <> EEOI) body ->
  parse_elements (body ++ [EEOI]) = POk \/ parse_elements (body ++ [EEOI]) = PErr.
Proof.
  intro F. unfold parse_elements.
  destruct (top_total (2 * length (body ++ [EEOI]) + 2) (body ++ [EEOI]) (wf_live _ (live_app _ F))) as (A & B).
  specialize (B ltac:(lia)).
  destruct (top _ _); auto; congruence.
Qed.
