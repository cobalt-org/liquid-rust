(* ValidProofs.v — everything a render writes is the UTF-8 encoding of valid characters, so the two
   `String::from_utf8(..).expect` sites of capture / ifchanged (model sites 303, 304) cannot be
   reached: this completes the no-panic theorem of C02 up to the unspecified sort.
   Validity of characters is an invariant of the whole evaluation: of the caller's data, of the
   template's literals and text, of what filters return (a hypothesis here, discharged per filter
   family in ValidFilters.v) and of what the oracle tables return.  The invariant is an instance of
   the walk of EvalLogic.v: one lemma per primitive of the runtime, then [VF_render]. *)
From LV Require Import Eval BaseLemmas StackProofs Utf8Proofs ValueProofs EvalInd EvalProofs EvalLogic ShapeProofs FindProofs SafeProofs DateProofs.

Definition sv (s : str) : bool := forallb valid_char s.
Fixpoint vv (v : value) : bool :=
  match v with
  | VScalar (SStr s) => sv s
  | VScalar _ => true
  | VArray l => forallb vv l
  | VObject kvs => forallb (fun kv => sv (fst kv) && vv (snd kv)) kvs
  | VState _ | VNil => true
  end.
Definition ov (d : obj) : bool := forallb (fun kv => sv (fst kv) && vv (snd kv)) d.
Definition fv (f : frame) : bool := match f with FPlain d | FSandbox d | FGlobal d | FIndex d => ov d end.
Definition rtv (r : rt) : bool := forallb fv r.

Lemma sv_app a b : sv (a ++ b) = sv a && sv b.
Proof. apply forallb_app. Qed.
Lemma sv_cons c s : sv (c :: s) = valid_char c && sv s.
Proof. reflexivity. Qed.
Lemma ascii_sv s : ascii s = true -> sv s = true.
Proof.
  unfold ascii, sv. rewrite !forallb_forall. intros H c Hc. specialize (H c Hc).
  unfold valid_char. apply N.ltb_lt in H. replace (c <? 55296)%N with true by (symmetry; apply N.ltb_lt; lia). reflexivity.
Qed.
Lemma show_Z_sv z : sv (show_Z z) = true.
Proof. apply ascii_sv, ascii_show_Z. Qed.
Lemma padz_sv w z : sv (padz w z) = true.
Proof. apply ascii_sv, ascii_padz. Qed.
Lemma strip_trailing_sv c s : sv s = true -> sv (strip_trailing c s) = true.
Proof.
  induction s as [|x t IH]; [reflexivity|]. rewrite sv_cons. intro H. apply andb_true_iff in H as [H1 H2]. cbn [strip_trailing].
  specialize (IH H2). destruct (strip_trailing c t) as [|y t'] eqn:E.
  - destruct (N.eqb x c); [reflexivity|]. rewrite sv_cons, H1. reflexivity.
  - rewrite sv_cons, H1. exact IH.
Qed.
Lemma show_date_sv d : sv (show_date d) = true.
Proof. unfold show_date. rewrite !sv_app, !padz_sv. reflexivity. Qed.
Lemma show_datetime_sv t : sv (show_datetime t) = true.
Proof.
  unfold show_datetime, show_offset.
  assert (F : sv (strip_trailing 48%N (pad_left 48%N 9 (show_Z (dt_nano t)))) = true)
    by (apply strip_trailing_sv, ascii_sv, ascii_pad_left; [reflexivity|apply ascii_show_Z]).
  destruct (dt_nano t =? 0)%Z; destruct (dt_off t <? 0)%Z;
    repeat (rewrite sv_app || rewrite sv_cons); rewrite ?show_date_sv, ?padz_sv, ?F; reflexivity.
Qed.

(* the oracle tables (float printing, case mapping, grapheme segmentation) return valid text *)
Definition oracle_valid (O : oracle) : Prop :=
  (forall f, sv (fshow O f) = true) /\
  (forall c, valid_char c = true -> sv (upper_c O c) = true) /\
  (forall c, valid_char c = true -> sv (lower_c O c) = true) /\
  (forall s, sv s = true -> forallb sv (graphemes O s) = true).

Fixpoint expr_ok (e : expr) : bool :=
  match e with
  | ELit v => vv v
  | EVar _ idx => (fix go (l : list expr) : bool := match l with [] => true | x :: t => expr_ok x && go t end) idx
  end.
Definition exprs_ok (l : list expr) : bool := forallb expr_ok l.
Definition fchain_ok (fc : fchain) : bool := expr_ok (fst fc) && forallb (fun fa => exprs_ok (snd fa)) (snd fc).
Fixpoint cond_ok (c : cond) : bool :=
  match c with
  | CBin l _ r => expr_ok l && expr_ok r
  | CExists l => expr_ok l
  | CAnd a b | COr a b => cond_ok a && cond_ok b
  end.
Definition range_ok (r : range) : bool := match r with RArray e => expr_ok e | RCounted a b => expr_ok a && expr_ok b end.
Definition oexpr_ok (o : option expr) : bool := match o with Some e => expr_ok e | None => true end.
Definition args_ok (a : list (str * expr)) : bool := forallb (fun xa => sv (fst xa) && expr_ok (snd xa)) a.

Lemma expr_ok_var r idx : expr_ok (EVar r idx) = forallb expr_ok idx.
Proof. cbn [expr_ok]. induction idx as [|x t IH]; [reflexivity|]. cbn [forallb]. rewrite IH. reflexivity. Qed.

Lemma upsert_ov k v d : sv k = true -> vv v = true -> ov d = true -> ov (upsert k v d) = true.
Proof.
  intros Hk Hv. unfold ov. induction d as [|[y w] t IH]; cbn [upsert forallb fst snd]; intro H.
  - rewrite Hk, Hv. reflexivity.
  - apply andb_true_iff in H as [H1 H2]. destruct (str_eqb k y); cbn [forallb fst snd]; [rewrite Hk, Hv, H2; reflexivity|rewrite H1, IH by exact H2; reflexivity].
Qed.
Lemma set_rtv {K notK hasK set site} (W : writes_first K notK hasK set site) : (forall d, fv (K d) = ov d) ->
  forall x v, sv x = true -> vv v = true -> forall r r', rtv r = true -> set x v r = Ok r' -> rtv r' = true.
Proof.
  intros HK x v Hx Hv r r' H (a & d & b & -> & ->)%(set_inv W). unfold rtv in *. rewrite forallb_app in *.
  cbn [forallb] in *. rewrite HK in *. apply andb_true_iff in H as [Ha H]. apply andb_true_iff in H as [Hd Hb].
  rewrite Ha, Hb, upsert_ov by assumption. reflexivity.
Qed.
Lemma rtv_tl r : rtv r = true -> rtv (tl r) = true.
Proof. destruct r as [|f q]; [auto|]. cbn [rtv forallb tl]. intro H. apply andb_true_iff in H as [_ H]. exact H. Qed.
Lemma rtv_push_plain a s : ov a = true -> rtv (fr s) = true -> rtv (fr (push_plain a s)) = true.
Proof. intros Ha Hs. cbn [push_plain fr rtv forallb fv]. rewrite Ha. exact Hs. Qed.
Lemma rtv_push_sandbox a s : ov a = true -> rtv (fr s) = true -> rtv (fr (push_sandbox a s)) = true.
Proof. intros Ha Hs. cbn [push_sandbox fr rtv forallb fv ov]. rewrite Ha. exact Hs. Qed.
Lemma rtv_build data : ov data = true -> rtv (fr (est_build data)) = true.
Proof. intro H. cbn [est_build fr runtime_build rtv forallb fv]. rewrite H. reflexivity. Qed.

(* an unbounded sink that holds the encoding of valid text; of a bounded sink, which may cut an encoding short, nothing is said *)
Definition SVk (k : sink) : Prop := budget k = None /\ exists t, sv t = true /\ acc k = encode t.
Lemma SVk0 : SVk sink0.
Proof. split; [reflexivity|]. exists []. split; reflexivity. Qed.
Lemma decode_valid f : forall bs t, decode_fuel f bs = Some t -> sv t = true.
Proof.
  induction f as [|f IH]; intros bs t E; destruct bs as [|b r]; cbn [decode_fuel] in E; try (inversion E; reflexivity); try discriminate.
  destruct (decode_one (b :: r)) as [[c r']|] eqn:D; [|discriminate].
  destruct (decode_fuel f r') as [u|] eqn:U; [|discriminate]. inversion E; subst. rewrite sv_cons, (IH _ _ U).
  assert (valid_char c = true) as ->; [|reflexivity].
  unfold decode_one in D. unfold valid_char.
  repeat match type of D with
         | (if ?b then _ else _) = _ => destruct b eqn:?; try discriminate
         | match ?l with _ => _ end = _ => destruct l; try discriminate
         end; inversion D; subst; unfold is_cont, valid_char in *; lia.
Qed.
Lemma SVk_decode k : SVk k -> exists t, decode (acc k) = Some t /\ sv t = true.
Proof. intros [_ [t [Ht Ha]]]. exists t. rewrite Ha. split; [apply decode_encode; exact Ht|exact Ht]. Qed.

Lemma vbool_vv b : vv (vbool b) = true. Proof. reflexivity. Qed.
Lemma tablerow_obj_vv i len col cols : vv (tablerow_obj i len col cols) = true.
Proof. reflexivity. Qed.
Lemma sv_lit_tr : forall z, sv ([60;116;114;32;99;108;97;115;115;61;34;114;111;119]%N ++ show_Z z ++ [34;62]%N) = true.
Proof. intro z. rewrite !sv_app, show_Z_sv. reflexivity. Qed.

Inductive nv : node -> Prop :=
| nv_text s : sv s = true -> nv (NText s) | nv_raw s : sv s = true -> nv (NRaw s) | nv_comment : nv NComment
| nv_out fc : fchain_ok fc = true -> nv (NOutput fc)
| nv_assign x fc : sv x = true -> fchain_ok fc = true -> nv (NAssign x fc)
| nv_capture x b : sv x = true -> Forall nv b -> nv (NCapture x b)
| nv_inc x : sv x = true -> nv (NIncrement x) | nv_dec x : sv x = true -> nv (NDecrement x)
| nv_cycle n vs : exprs_ok vs = true -> nv (NCycle n vs)
| nv_if m c t e : cond_ok c = true -> Forall nv t -> OptForall nv e -> nv (NIf m c t e)
| nv_case tg ws e : expr_ok tg = true -> Forall (fun w => exprs_ok (fst w) = true /\ Forall nv (snd w)) ws -> OptForall nv e -> nv (NCase tg ws e)
| nv_for x r l o rv b e : sv x = true -> range_ok r = true -> oexpr_ok l = true -> oexpr_ok o = true -> Forall nv b -> OptForall nv e ->
    nv (NFor x r l o rv b e)
| nv_table x r c l o b : sv x = true -> range_ok r = true -> oexpr_ok c = true -> oexpr_ok l = true -> oexpr_ok o = true -> Forall nv b ->
    nv (NTableRow x r c l o b)
| nv_break : nv NBreak | nv_cont : nv NContinue
| nv_ifch b : Forall nv b -> nv (NIfChanged b)
| nv_incl p a : expr_ok p = true -> args_ok a = true -> nv (NInclude p a)
| nv_render p f a : expr_ok p = true -> args_ok a = true ->
    (match f with Some (rng, x) => range_ok rng = true /\ sv x = true | None => True end) -> nv (NRender p f a).
Definition tvalid (t : template) : Prop := Forall nv t.

(* the one panic site a valid render can reach: slice::sort_by on a comparator that is not a total preorder *)
Definition sortsite (n : N) : Prop := n = site_sort_unspecified.
(* the specification handed to EvalLogic: the runtime keeps its shape and holds valid values only, the sink stays valid *)
Definition vpre (s : est) : Prop := okst s /\ rtv (fr s) = true.
Definition vrel (s s' : est) : Prop := esim s s' /\ (rtv (fr s) = true -> rtv (fr s') = true).
Definition krel (k k' : sink) : Prop := SVk k -> SVk k'.
Definition tv (n : node) : Prop := nwf n /\ nv n.
Definition VF : (est -> sink -> out) -> Prop := triple vpre vrel krel sortsite.

Lemma vrel_refl s : vrel s s.
Proof. split; [apply esim_refl|auto]. Qed.
Lemma vrel_trans a b c : vrel a b -> vrel b c -> vrel a c.
Proof. intros [E1 R1] [E2 R2]. split; [eapply esim_trans; eassumption|auto]. Qed.
Lemma vpre_vrel s s' : vpre s -> vrel s s' -> vpre s'.
Proof. intros [W R] [E R']. split; [eapply okst_esim; eassumption|auto]. Qed.
Lemma krel_refl k : krel k k.
Proof. exact (fun H => H). Qed.
Lemma krel_trans a b c : krel a b -> krel b c -> krel a c.
Proof. unfold krel. auto. Qed.
Lemma Forall_tv l : Forall nwf l -> Forall nv l -> Forall tv l.
Proof. unfold tv. apply Forall_and. Qed.
Lemma optF_tv o : OptForall nwf o -> OptForall nv o -> optF tv o.
Proof. destruct 1; inversion 1; subst; cbn; auto using Forall_tv. Qed.

Lemma z_range_vv n : forall a, forallb vv (z_range n a) = true.
Proof. induction n; intro a; [reflexivity|]. cbn [z_range forallb vv]. apply IHn. Qed.

Lemma tv_ok n : tv n ->
  node_ok sortsite (fun t => sv t = true) (fun fc => fchain_ok fc = true) (fun e => expr_ok e = true)
    (fun r => range_ok r = true) (fun a => args_ok a = true) tv n.
Proof.
  intros [Hw Hv]. destruct Hv; inversion Hw; subst; cbn; repeat split; auto using Forall_tv, optF_tv.
  - contradiction.
  - apply forallb_Forall. assumption.
  - match goal with A : Forall _ ws, B : Forall _ ws |- _ => pose proof (Forall_and A B) as C end.
    eapply Forall_impl; [|exact C]. cbn. intros w [[Ha Hb] Hc]. split; [apply forallb_Forall, Ha|apply Forall_tv; assumption].
Qed.

Lemma vrel_regs g s : vpre s -> vrel s (set_regs g s).
Proof. intros [[W _] _]. split; [apply esim_set_regs, W|auto]. Qed.
Lemma vrel_global x v s : vpre s -> sv x = true -> vv v = true ->
  rd sortsite (set_global x v (fr s)) (fun f' => vrel s (mkEst f' (rg s))).
Proof.
  intros [[_ [G _]] R] Hx Hv. destruct (set_global_safe x v (fr s) G) as [f' E]. rewrite E.
  split; [apply (esim_global _ _ _ _ E)|intros _; exact (set_rtv global_writes (fun _ => eq_refl) x v Hx Hv _ _ R E)].
Qed.
Lemma vrel_index x z s : vpre s -> sv x = true -> rd sortsite (set_index x (vz z) (fr s)) (fun f' => vrel s (mkEst f' (rg s))).
Proof.
  intros [[_ [_ I]] R] Hx. destruct (set_index_safe x (vz z) (fr s) I) as [f' E]. rewrite E.
  split; [apply (esim_index _ _ _ _ E)|intros _; exact (set_rtv index_writes (fun _ => eq_refl) x (vz z) Hx eq_refl _ _ R E)].
Qed.
Lemma vpre_push_plain a s : vpre s -> ov a = true -> vpre (push_plain a s).
Proof. intros [W R] Ha. split; [apply okst_push_plain, W|apply rtv_push_plain; assumption]. Qed.
Lemma vrel_pop_plain a s s' : vpre s -> ov a = true -> vrel (push_plain a s) s' -> vrel s (pop_plain s').
Proof.
  intros [_ R] Ha [E R']. split; [apply (esim_pop_plain a), E|].
  intros _. apply (rtv_tl (fr s')), R', rtv_push_plain; assumption.
Qed.
Lemma vpre_push_sandbox a s : vpre s -> ov a = true -> vpre (push_sandbox a s).
Proof. intros [W R] Ha. split; [apply okst_push_sandbox, W|apply rtv_push_sandbox; assumption]. Qed.
Lemma vrel_pop_sandbox a s s' : vpre s -> ov a = true -> vrel (push_sandbox a s) s' -> vrel s (pop_sandbox s').
Proof.
  intros [_ R] Ha [E R']. split; [apply (esim_pop_sandbox a), E|].
  intros _. apply (rtv_tl (tl (fr s'))), rtv_tl, R', rtv_push_sandbox; assumption.
Qed.
Lemma krel_write k t : sv t = true -> krel k (fst (write k (encode t))).
Proof.
  intros Ht [Hb [t0 [H0 Ha]]]. unfold write. rewrite Hb. split; [reflexivity|]. exists (t0 ++ t).
  cbn [fst acc]. unfold encode. rewrite sv_app, H0, Ht, Ha, flat_map_app. split; reflexivity.
Qed.
(* a private buffer that only received valid text decodes: the two from_utf8 sites are out of reach *)
Lemma krel_decode kc : krel sink0 kc ->
  match decode (acc kc) with Some t => sv t = true | None => sortsite 303%N /\ sortsite 304%N end.
Proof. intro Hk. destruct (SVk_decode kc (Hk SVk0)) as [t [-> Ht]]. exact Ht. Qed.
Lemma sv_tr i len cols : sv (tr_open i cols) = true /\ sv (tr_close i len cols) = true.
Proof.
  unfold tr_open, tr_close. split; [destruct (_ =? 0)%Z; rewrite ?sv_app, ?show_Z_sv; reflexivity|destruct (_ || _); reflexivity].
Qed.
Lemma forloop_obj_ok i len parent : popt (fun v => vv v = true) parent -> vv (forloop_obj i len parent) = true.
Proof. intro Hp. unfold forloop_obj. cbn [vv forallb fst snd]. destruct parent; cbn [popt vv] in *; rewrite ?Hp; reflexivity. Qed.

Section V.
Variable O : oracle.
Hypothesis HO : oracle_valid O.

Lemma kstr_sv s : vv (VScalar s) = true -> sv (scalar_kstr O s) = true.
Proof.
  destruct s; cbn [vv scalar_kstr]; intro H; try exact H.
  - apply show_Z_sv. - apply HO. - destruct b; reflexivity. - apply show_datetime_sv. - apply show_date_sv.
Qed.
Lemma sv_concat l : forallb sv l = true -> sv (concat l) = true.
Proof. induction l as [|a t IH]; cbn [forallb concat]; [reflexivity|]. intro H. apply andb_true_iff in H as [H1 H2]. rewrite sv_app, H1, IH by exact H2. reflexivity. Qed.
Lemma render_sv v : vv v = true -> sv (Value.render O v) = true.
Proof.
  induction v as [s|l IH|l IH|s|] using ValueProofs.value_ind'; intro H.
  - apply kstr_sv. exact H.
  - cbn [Value.render]. cbn [vv] in H.
    induction l as [|a t IHt]; [reflexivity|]. cbn [flat_map]. cbn [forallb] in H. apply andb_true_iff in H as [Ha Ht].
    inversion IH as [|? ? IHa IHl]; subst. rewrite sv_app, (IHa Ha). cbn [andb]. apply IHt; assumption.
  - cbn [vv] in H.
    induction l as [|[k a] t IHt]; [reflexivity|]. cbn [forallb fst snd] in H. apply andb_true_iff in H as [Hka Ht].
    apply andb_true_iff in Hka as [Hk Ha]. inversion IH as [|? ? IHa IHl]; subst. cbn [snd] in IHa.
    change (Value.render O (VObject ((k, a) :: t))) with (k ++ Value.render O a ++ Value.render O (VObject t)).
    rewrite !sv_app, Hk, (IHa Ha). cbn [andb]. apply IHt; assumption.
  - reflexivity.
  - reflexivity.
Qed.

Lemma nth_error_vv l j v : forallb vv l = true -> nth_error l j = Some v -> vv v = true.
Proof. intros H E. apply nth_error_In in E. rewrite forallb_forall in H. auto. Qed.
Lemma arr_get_vv l i v : forallb vv l = true -> arr_get l i = Some v -> vv v = true.
Proof. unfold arr_get. intros H. destruct (_ <? 0)%Z; [discriminate|]. apply nth_error_vv. exact H. Qed.
Lemma lookup_vv k d v : ov d = true -> lookup k d = Some v -> vv v = true.
Proof.
  intros H E. apply lookup_In in E. unfold ov in H. rewrite forallb_forall in H. specialize (H _ E). cbn [fst snd] in H.
  apply andb_true_iff in H as [_ H]. exact H.
Qed.
Lemma augmented_get_vv v idx c : vv v = true -> augmented_get O v idx = Some c -> vv c = true.
Proof.
  destruct v as [s|l|kvs|st|]; cbn [augmented_get vv]; intros H E; try discriminate.
  - destruct (str_eqb _ k_size); inversion E; reflexivity.
  - destruct (to_integer idx); [eapply arr_get_vv; eassumption|].
    destruct (str_eqb _ k_first); [eapply arr_get_vv; eassumption|].
    destruct (str_eqb _ k_last); [eapply arr_get_vv; eassumption|].
    destruct (str_eqb _ k_size); inversion E; reflexivity.
  - destruct (lookup (scalar_kstr O idx) kvs) eqn:L; [inversion E; subst; eapply lookup_vv; eassumption|].
    destruct (str_eqb _ k_size); inversion E; reflexivity.
Qed.
Lemma try_find_vv p : forall v c, vv v = true -> try_find O v p = Some c -> vv c = true.
Proof.
  induction p as [|i p IH]; intros v c H E; cbn [try_find] in E; [inversion E; subst; exact H|].
  destruct (augmented_get O v i) eqn:A; [|discriminate]. eapply IH; [eapply augmented_get_vv; eassumption|exact E].
Qed.
Lemma try_get_vv p : forall r c, rtv r = true -> Stack.try_get O p r = Some c -> vv c = true.
Proof.
  induction r as [|f q IH]; intros c H E; cbn [Stack.try_get] in E; destruct (path_key O p); try discriminate.
  cbn [rtv forallb] in H. apply andb_true_iff in H as [Hf Hq].
  destruct f as [d|d|d|d]; cbn [fv] in Hf;
    try (destruct (has_key s d); [exact (try_find_vv _ (VObject d) _ Hf E)|apply IH; assumption]).
  destruct (lookup s d); [exact (try_find_vv _ (VObject d) _ Hf E)|discriminate].
Qed.
Lemma get_vv p r c : rtv r = true -> Stack.get O p r = Ok c -> vv c = true.
Proof. intros H E. apply (get_try_get_agree O) in E. eapply try_get_vv; eassumption. Qed.

Lemma eval_indices_ok idx s : forall p, eval_indices O idx s = Ok p -> True.
Proof. trivial. Qed.
Lemma eval_expr_vv e : forall s v, expr_ok e = true -> rtv (fr s) = true -> eval_expr O e s = Ok v -> vv v = true.
Proof.
  destruct e as [lv|r idx]; intros s v He Hs E.
  - inversion E; subst. exact He.
  - rewrite eval_var_unfold in E. destruct (eval_indices O idx s) as [p| | |]; try discriminate. cbn [bind] in E.
    eapply get_vv; eassumption.
Qed.
Lemma try_eval_expr_vv e : forall s v, rtv (fr s) = true -> expr_ok e = true -> try_eval_expr O e s = Some v -> vv v = true.
Proof.
  destruct e as [lv|r idx]; intros s v Hs He E; cbn [try_eval_expr] in E.
  - inversion E; subst. exact He.
  - match type of E with match ?pp with _ => _ end = _ => destruct pp as [p|]; [|discriminate] end. eapply try_get_vv; eassumption.
Qed.
Lemma eval_exprs_vv l s : forall vs, exprs_ok l = true -> rtv (fr s) = true -> eval_exprs O l s = Ok vs -> forallb vv vs = true.
Proof.
  induction l as [|e t IH]; intros vs Hl Hs E; cbn [eval_exprs] in E; [inversion E; reflexivity|].
  cbn [exprs_ok forallb] in Hl. apply andb_true_iff in Hl as [He Ht].
  destruct (eval_expr O e s) as [v| | |] eqn:Ee; try discriminate. cbn [bind] in E.
  destruct (eval_exprs O t s) as [r| | |] eqn:Et; try discriminate. cbn [bind] in E. inversion E; subst.
  cbn [forallb]. rewrite (eval_expr_vv e s v He Hs Ee), (IH r Ht Hs eq_refl). reflexivity.
Qed.

Hypothesis FV : forall f v args r, vv v = true -> forallb vv args = true -> apply_filter O f v args = Ok r -> vv r = true.
Lemma apply_filters_vv fs s : forall v r, vv v = true -> forallb (fun fa => exprs_ok (snd fa)) fs = true -> rtv (fr s) = true ->
  apply_filters O v fs s = Ok r -> vv r = true.
Proof.
  induction fs as [|[f args] t IH]; intros v r Hv Hf Hs E; cbn [apply_filters] in E; [inversion E; subst; exact Hv|].
  cbn [forallb snd] in Hf. apply andb_true_iff in Hf as [Ha Ht].
  destruct (eval_exprs O args s) as [a| | |] eqn:Ea; try discriminate. cbn [bind] in E.
  destruct (apply_filter O f v a) as [x| | |] eqn:Ex; try discriminate. cbn [bind] in E.
  eapply IH; [|exact Ht|exact Hs|exact E]. eapply FV; [exact Hv| |exact Ex]. eapply eval_exprs_vv; eassumption.
Qed.
Lemma eval_chain_vv fc s v : fchain_ok fc = true -> rtv (fr s) = true -> eval_chain_e O fc s = Ok v -> vv v = true.
Proof.
  unfold fchain_ok, eval_chain_e. intros H Hs E. apply andb_true_iff in H as [He Hf].
  destruct (eval_expr O (fst fc) s) as [x| | |] eqn:Ex; try discriminate. cbn [bind] in E.
  eapply apply_filters_vv; [|exact Hf|exact Hs|exact E]. eapply eval_expr_vv; eassumption.
Qed.
Lemma get_array_vv v l : vv v = true -> get_array v = Ok l -> forallb vv l = true.
Proof.
  destruct v as [s|a|kvs|st|]; cbn [get_array vv]; intros H E; inversion E; subst; try reflexivity; [exact H|].
  induction kvs as [|[k x] t IH]; [reflexivity|]. cbn [forallb fst snd map vv] in *. apply andb_true_iff in H as [H1 H2].
  apply andb_true_iff in H1 as [Hk Hx]. rewrite Hk, Hx. cbn [andb]. apply IH; [exact H2|reflexivity].
Qed.
Lemma eval_range_vv r s l : range_ok r = true -> rtv (fr s) = true -> eval_range O r s = Ok l -> forallb vv l = true.
Proof.
  destruct r as [e|a b]; cbn [eval_range range_ok]; intros Hr Hs E.
  - destruct (eval_expr O e s) as [v| | |] eqn:Ev; try discriminate. cbn [bind] in E.
    eapply get_array_vv; [eapply eval_expr_vv; eassumption|exact E].
  - destruct (int_arg O a s) as [x| | |]; try discriminate. cbn [bind] in E. destruct (int_arg O b s) as [y| | |]; try discriminate.
    cbn [bind] in E. inversion E; subst. destruct (y <? x)%Z; [reflexivity|apply z_range_vv].
Qed.
Lemma eval_args_ov args s : forall acc a, args_ok args = true -> rtv (fr s) = true -> ov acc = true -> eval_args O args s acc = Ok a -> ov a = true.
Proof.
  induction args as [|[x e] t IH]; intros acc a Ha Hs Hacc E; cbn [eval_args] in E; [inversion E; subst; exact Hacc|].
  cbn [args_ok forallb fst snd] in Ha. apply andb_true_iff in Ha as [Hxe Ht]. apply andb_true_iff in Hxe as [Hx He].
  destruct (try_eval_expr O e s) as [v|] eqn:Ev; [|discriminate].
  eapply IH; [exact Ht|exact Hs| |exact E]. apply upsert_ov; auto. eapply try_eval_expr_vv; eassumption.
Qed.

Lemma rd_chain fc s : fchain_ok fc = true -> vpre s -> rd sortsite (eval_chain_e O fc s) (fun v => vv v = true).
Proof. intros Hfc [_ R]. apply (rd_of_rsafe sortsite eq_refl); [apply eval_chain_e_safe|]. intros v E. eapply eval_chain_vv; eassumption. Qed.
Lemma rd_expr e s : expr_ok e = true -> vpre s -> rd sortsite (eval_expr O e s) (fun v => vv v = true).
Proof. intros He [_ R]. apply (rd_of_rsafe sortsite eq_refl); [apply eval_expr_safe|]. intros v E. eapply eval_expr_vv; eassumption. Qed.
Lemma rd_cond c s : rd sortsite (eval_cond O c s) (fun _ => True).
Proof. apply (rd_of_rsafe sortsite eq_refl); [apply eval_cond_safe|trivial]. Qed.
Lemma rd_range r s : range_ok r = true -> vpre s -> rd sortsite (eval_range O r s) (Forall (fun v => vv v = true)).
Proof.
  intros Hr [_ R]. apply (rd_of_rsafe sortsite eq_refl); [apply eval_range_safe|]. intros l E. apply forallb_Forall. eapply eval_range_vv; eassumption.
Qed.
Lemma rd_attr a s : rd sortsite (attr_usize O a s) (fun _ => True).
Proof. apply (rd_of_rsafe sortsite eq_refl); [apply attr_usize_safe|trivial]. Qed.
Lemma rd_args a s : args_ok a = true -> vpre s -> rd sortsite (eval_args O a s []) (fun d => ov d = true).
Proof. intros Ha [_ R]. apply (rd_of_rsafe sortsite eq_refl); [apply eval_args_safe|]. intros d E. exact (eval_args_ov _ _ [] _ Ha R eq_refl E). Qed.

Section VAll.
Variable ps : pstore.
Hypothesis ps_ok : forall name, match ps name with Ok b => twf b /\ tvalid b | Panic _ => False | _ => True end.

Lemma ps_valid name : rd sortsite (ps name) (Forall tv).
Proof. specialize (ps_ok name). destruct (ps name); cbn; auto; [apply Forall_tv; apply ps_ok|contradiction]. Qed.

Theorem VF_render : forall d l, Forall tv l -> VF (render O ps d l).
Proof.
  (* the hypotheses of EvalLogic's Section Logic in their order, a group a line:
     syntax; preorders; updates of runtime and sink; data the evaluator makes; readers *)
  exact (triple_render O ps vpre vrel krel sortsite _ _ _ _ _ _ _ tv
           tv_ok
           vrel_refl vrel_trans krel_refl krel_trans vpre_vrel
           vrel_regs vrel_global vrel_index vpre_push_plain vrel_pop_plain vpre_push_sandbox vrel_pop_sandbox krel_write krel_decode
           show_Z_sv render_sv sv_tr (conj eq_refl eq_refl) (fun t H => H) forloop_obj_ok tablerow_obj_vv eq_refl upsert_ov
           rd_chain rd_expr rd_cond rd_range rd_attr rd_args eq_refl ps_valid).
Qed.
Theorem render_valid : forall d l, twf l -> tvalid l -> VF (render O ps d l).
Proof. intros d l Hw Hv. apply VF_render, Forall_tv; assumption. Qed.

(* C02, complete up to the unspecified sort: no panic site other than slice::sort_by on a comparator
   that is not a total preorder can be reached, and what a render writes into an unbounded sink is
   the UTF-8 encoding of valid characters *)
Theorem render_top_panic_free depth t data k : twf t -> tvalid t -> ov data = true ->
  match render_top O ps depth t data k with
  | (OPanicked n, _, _) => n = site_sort_unspecified
  | _ => True
  end.
Proof.
  intros Hw Hv Hd. unfold render_top.
  pose proof (render_valid (S depth) t Hw Hv (est_build data) k (conj (okst_build data) (rtv_build data Hd))) as V1.
  destruct (render O ps (S depth) t (est_build data) k) as [[o s'] k']. destruct V1 as (_ & _ & G). destruct o; auto.
Qed.
Theorem output_is_utf8 depth t data : twf t -> tvalid t -> ov data = true ->
  match render_top O ps depth t data sink0 with
  | (_, _, k') => exists text, forallb valid_char text = true /\ acc k' = encode text /\ decode (acc k') = Some text
  end.
Proof.
  intros Hw Hv Hd. unfold render_top.
  pose proof (render_valid (S depth) t Hw Hv (est_build data) sink0 (conj (okst_build data) (rtv_build data Hd))) as V1.
  destruct (render O ps (S depth) t (est_build data) sink0) as [[o s'] k']. destruct V1 as (_ & Sk & _).
  destruct (Sk SVk0) as [_ [text [Ht Ha]]]. exists text. repeat split; auto. rewrite Ha. apply decode_encode. exact Ht.
Qed.
End VAll.
End V.
