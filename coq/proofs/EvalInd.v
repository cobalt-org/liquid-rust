(* Induction principle for templates (nested through lists, options and pairs). *)
From LV Require Import Base Value Stack Eval.

Definition optF (P : node -> Prop) (o : option (list node)) : Prop :=
  match o with Some l => Forall P l | None => True end.

Section Ind.
Variable P : node -> Prop.
Hypothesis Htext : forall s, P (NText s).
Hypothesis Hraw : forall s, P (NRaw s).
Hypothesis Hcomment : P NComment.
Hypothesis Hout : forall fc, P (NOutput fc).
Hypothesis Hassign : forall x fc, P (NAssign x fc).
Hypothesis Hcapture : forall x b, Forall P b -> P (NCapture x b).
Hypothesis Hinc : forall x, P (NIncrement x).
Hypothesis Hdec : forall x, P (NDecrement x).
Hypothesis Hcycle : forall n vs, P (NCycle n vs).
Hypothesis Hif : forall m c t e, Forall P t -> optF P e -> P (NIf m c t e).
Hypothesis Hcase : forall tg ws e, Forall (fun w => Forall P (snd w)) ws -> optF P e -> P (NCase tg ws e).
Hypothesis Hfor : forall x r l o rv b e, Forall P b -> optF P e -> P (NFor x r l o rv b e).
Hypothesis Htable : forall x r c l o b, Forall P b -> P (NTableRow x r c l o b).
Hypothesis Hbreak : P NBreak.
Hypothesis Hcont : P NContinue.
Hypothesis Hifch : forall b, Forall P b -> P (NIfChanged b).
Hypothesis Hincl : forall p a, P (NInclude p a).
Hypothesis Hrender : forall p f a, P (NRender p f a).

Fixpoint node_ind' (n : node) : P n :=
  let fl := fix fl (l : list node) : Forall P l :=
      match l with [] => Forall_nil _ | x :: t => Forall_cons _ (node_ind' x) (fl t) end in
  let fo := fun (o : option (list node)) => match o return optF P o with Some l => fl l | None => I end in
  match n with
  | NText s => Htext s | NRaw s => Hraw s | NComment => Hcomment
  | NOutput fc => Hout fc | NAssign x fc => Hassign x fc
  | NCapture x b => Hcapture x b (fl b)
  | NIncrement x => Hinc x | NDecrement x => Hdec x | NCycle nm vs => Hcycle nm vs
  | NIf m c t e => Hif m c t e (fl t) (fo e)
  | NCase tg ws e =>
      Hcase tg ws e
        ((fix fw (ws : list (list expr * list node)) : Forall (fun w => Forall P (snd w)) ws :=
            match ws with [] => Forall_nil _ | w :: t => Forall_cons _ (fl (snd w)) (fw t) end) ws)
        (fo e)
  | NFor x r l o rv b e => Hfor x r l o rv b e (fl b) (fo e)
  | NTableRow x r c l o b => Htable x r c l o b (fl b)
  | NBreak => Hbreak | NContinue => Hcont
  | NIfChanged b => Hifch b (fl b)
  | NInclude p a => Hincl p a
  | NRender p f a => Hrender p f a
  end.
End Ind.
