(* Proofs about model/Stack.v (property C18; reused by C02, C04, C07 and C08). *)
From LV Require Import Stack BaseLemmas.

(* the runtime split at its first global layer: the frames above it, its data, the frames below *)
Fixpoint through (r : rt) : option (list frame * obj * rt) :=
  match r with
  | [] => None
  | FGlobal d :: q => Some ([], d, q)
  | f :: q => match through q with Some (a, d, b) => Some (f :: a, d, b) | None => None end
  end.
Definition not_global (f : frame) : Prop := match f with FGlobal _ => False | _ => True end.
Definition not_index (f : frame) : Prop := match f with FIndex _ => False | _ => True end.
Fixpoint has_global (r : rt) : bool := match r with [] => false | FGlobal _ :: _ => true | _ :: q => has_global q end.
Fixpoint has_index (r : rt) : bool := match r with [] => false | FIndex _ :: _ => true | _ :: q => has_index q end.

Definition kind (f : frame) : nat :=
  match f with FPlain _ => 0 | FSandbox _ => 1 | FGlobal _ => 2 | FIndex _ => 3 end.

(* What set_global and set_index have in common: each writes to the first frame of one kind, [K], and
   reaches RuntimeCore's unreachable!() when there is none. *)
Set Implicit Arguments.
Record writes_first (K : obj -> frame) (notK : frame -> Prop) (hasK : rt -> bool)
    (set : str -> value -> rt -> res rt) (site : N) : Prop := {
  kind_cases : forall f, notK f \/ exists d, f = K d;
  kind_data : forall d d', kind (K d') = kind (K d);
  set_nil : forall k v, set k v [] = Panic site;
  set_hit : forall k v d q, set k v (K d :: q) = Ok (K (upsert k v d) :: q);
  set_skip : forall k v f q, notK f -> set k v (f :: q) = do q' <- set k v q; Ok (f :: q');
  has_nil : hasK [] = false;
  has_hit : forall d q, hasK (K d :: q) = true;
  has_skip : forall f q, notK f -> hasK (f :: q) = hasK q }.
Unset Implicit Arguments.

Lemma global_writes : writes_first FGlobal not_global has_global set_global site_core_set_global.
Proof.
  split; try reflexivity.
  - intros [d|d|d|d]; simpl; eauto.
  - intros k v [d|d|d|d] q []; reflexivity.
  - intros [d|d|d|d] q []; reflexivity.
Qed.
Lemma index_writes : writes_first FIndex not_index has_index set_index site_core_set_index.
Proof.
  split; try reflexivity.
  - intros [d|d|d|d]; simpl; eauto.
  - intros k v [d|d|d|d] q []; reflexivity.
  - intros [d|d|d|d] q []; reflexivity.
Qed.

Section Writes.
Context {K notK hasK set site} (W : writes_first K notK hasK set site).

Lemma set_first k v a d b : Forall notK a -> set k v (a ++ K d :: b) = Ok (a ++ K (upsert k v d) :: b).
Proof.
  induction 1 as [|f a N _ IH]; simpl; [apply (set_hit W)|].
  rewrite (set_skip W) by exact N. rewrite IH. reflexivity.
Qed.
Lemma set_none k v r : Forall notK r -> set k v r = Panic site.
Proof.
  induction 1 as [|f q N _ IH]; [apply (set_nil W)|].
  rewrite (set_skip W) by exact N. rewrite IH. reflexivity.
Qed.
Lemma set_pop k v f q r' : notK f -> set k v (f :: q) = Ok r' -> exists q', r' = f :: q' /\ set k v q = Ok q'.
Proof.
  intro N. rewrite (set_skip W) by exact N.
  destruct (set k v q) as [q'| | |]; simpl; [|discriminate..]. intros [= <-]. eauto.
Qed.

Lemma set_inv k v r r' : set k v r = Ok r' -> exists a d b, r = a ++ K d :: b /\ r' = a ++ K (upsert k v d) :: b.
Proof.
  revert r'; induction r as [|f q IH]; intros r' H; [rewrite (set_nil W) in H; discriminate|].
  destruct (kind_cases W f) as [N|[d ->]].
  - apply (set_pop _ _ _ _ _ N) in H as (q' & -> & (a & d & b & -> & ->)%IH). exists (f :: a), d, b. auto.
  - rewrite (set_hit W) in H. injection H as <-. exists [], d, q. auto.
Qed.

Lemma has_skipn n r : hasK (skipn n r) = true -> hasK r = true.
Proof.
  revert r; induction n as [|n IH]; intros [|f q] H; try exact H. simpl in H.
  destruct (kind_cases W f) as [N|[d ->]]; [rewrite (has_skip W) by exact N; auto|apply (has_hit W)].
Qed.

Lemma set_kinds k v r : hasK r = true -> exists r', set k v r = Ok r' /\ map kind r' = map kind r.
Proof.
  induction r as [|f q IH]; [rewrite (has_nil W); discriminate|].
  destruct (kind_cases W f) as [N|[d ->]].
  - rewrite (has_skip W), (set_skip W) by exact N. intro H. destruct (IH H) as (q' & -> & E).
    exists (f :: q'). simpl. rewrite E. auto.
  - intros _. rewrite (set_hit W). eexists. split; [reflexivity|]. simpl. rewrite (kind_data W d). reflexivity.
Qed.
End Writes.

Lemma through_spec r :
  match through r with
  | Some (a, d, b) => r = a ++ FGlobal d :: b /\ Forall not_global a
  | None => Forall not_global r
  end.
Proof.
  induction r as [|f q IH]; simpl; [constructor|].
  destruct f as [e|e|e|e]; [| |split; [reflexivity|constructor]|];
    (destruct (through q) as [[[a d] b]|]; [destruct IH as [-> F]; split; [reflexivity|]|]; constructor; simpl; auto).
Qed.

Lemma through_split r a d b : through r = Some (a, d, b) ->
  r = a ++ FGlobal d :: b /\ Forall not_global a.
Proof. intro T. pose proof (through_spec r) as S. rewrite T in S. exact S. Qed.

Theorem set_global_nearest k v r a d b : through r = Some (a, d, b) ->
  set_global k v r = Ok (a ++ FGlobal (upsert k v d) :: b) /\ Forall not_global a.
Proof. intro T. apply through_split in T as [-> F]. split; [apply (set_first global_writes), F|exact F]. Qed.

Theorem set_global_panics_iff k v r : (exists s, set_global k v r = Panic s) <-> through r = None.
Proof.
  pose proof (through_spec r) as S. destruct (through r) as [[[a d] b]|].
  - destruct S as [-> F]. rewrite (set_first global_writes k v a d b F). split; [intros [s Hs]|]; discriminate.
  - rewrite (set_none global_writes k v r S). split; eauto.
Qed.

(* an assignment to a global passes under a head frame that is not the global one and leaves it alone: dropping that
   layer afterwards gives the runtime below with the assignment made in it *)
Theorem pop_restores k v f q r' : not_global f -> set_global k v (f :: q) = Ok r' ->
  exists q', r' = f :: q' /\ set_global k v q = Ok q'.
Proof. apply (set_pop global_writes). Qed.
Theorem pop_restores_index k v f q r' : (match f with FIndex _ => False | _ => True end) ->
  set_index k v (f :: q) = Ok r' -> exists q', r' = f :: q' /\ set_index k v q = Ok q'.
Proof. apply (set_pop index_writes). Qed.

Theorem counters_ignore_scopes k f q : not_index f -> get_index k (f :: q) = get_index k q.
Proof. destruct f; simpl; tauto. Qed.
Theorem counters_shared k v a d b :
  Forall not_index a ->
  set_index k v (a ++ FIndex d :: b) = Ok (a ++ FIndex (upsert k v d) :: b) /\
  get_index k (a ++ FIndex (upsert k v d) :: b) = Some v.
Proof.
  intro F. split; [apply (set_first index_writes), F|].
  induction F as [|f a N _ IH]; [apply lookup_upsert_same|]. simpl app. rewrite counters_ignore_scopes; assumption.
Qed.

(* the base (the last |r| - n frames) contains a global and an index layer *)
Definition base_ok (s : rt * nat) : Prop :=
  let (r, n) := s in n <= length r /\ has_global (skipn n r) = true /\ has_index (skipn n r) = true.

Lemma same_kinds r r' : map kind r' = map kind r -> length r' = length r /\
  forall n, has_global (skipn n r') = has_global (skipn n r) /\ has_index (skipn n r') = has_index (skipn n r).
Proof.
  revert r'; induction r as [|f q IH]; intros [|f' q'] E; try discriminate; [split; [reflexivity|intros []; auto]|].
  injection E as Ef Eq. destruct (IH q' Eq) as [L S]. split; [simpl; congruence|].
  intros [|n]; [|apply S]. destruct (S 0) as [S1 S2]. destruct f, f'; try discriminate; simpl in *; auto.
Qed.
Lemma step_safe s o : base_ok s -> exists s', step s o = Ok s' /\ base_ok s'.
Proof.
  destruct s as [r n]. intros [Hl [Hg Hi]].
  assert (Hset : forall r', map kind r' = map kind r -> base_ok (r', n)).
  { intros r' Ek. destruct (same_kinds r r' Ek) as [L S]. destruct (S n). simpl; repeat split; congruence. }
  destruct o as [d|d| | |k v|k v]; simpl.
  1-3: eexists; split; [reflexivity|]; simpl; repeat split; auto; lia.
  - destruct n as [|n]; [eexists; split; [reflexivity|]; simpl; auto|].
    destruct r as [|f q]; [simpl in Hl; lia|]. eexists; split; [reflexivity|]. simpl in *; repeat split; auto; lia.
  - destruct (set_kinds global_writes k v r (has_skipn global_writes n r Hg)) as (r' & -> & Ek). simpl; eauto.
  - destruct (set_kinds index_writes k v r (has_skipn index_writes n r Hi)) as (r' & -> & Ek). simpl; eauto.
Qed.

Theorem run_safe ops : forall s, base_ok s -> exists s', run s ops = Ok s' /\ base_ok s'.
Proof.
  induction ops as [|o t IH]; intros s H; simpl; [eauto|].
  destruct (step_safe s o H) as [s' [E H']]. rewrite E; simpl. apply IH; assumption.
Qed.

(* the unreachable!()s of RuntimeCore are never reached from a RuntimeBuilder-made runtime *)
Theorem builder_runtime_safe data ops :
  exists s', run (runtime_build data, 0) ops = Ok s' /\ base_ok s'.
Proof. apply run_safe. simpl; repeat split; auto; lia. Qed.

Section P.
Variable O : oracle.
Notation try_get := (try_get O).
Notation get := (get O).
Notation find := (find O).
Notation try_find := (try_find O).

Arguments Value.try_find : simpl never.
Arguments Value.find : simpl never.

Lemma try_find_single d k : try_find (VObject d) [k] =
  match lookup (scalar_kstr O k) d with
  | Some x => Some x
  | None => if str_eqb (scalar_kstr O k) k_size then Some (VScalar (SInt (Z.of_nat (length d)))) else None
  end.
Proof. unfold Value.try_find; simpl. destruct (lookup _ d); [reflexivity|]. destruct (str_eqb _ _); reflexivity. Qed.

Lemma try_find_cons_key d k p : has_key (scalar_kstr O k) d = true ->
  try_find (VObject d) (k :: p) =
  match lookup (scalar_kstr O k) d with Some x => try_find x p | None => None end.
Proof.
  unfold has_key. intro H. unfold Value.try_find at 1; simpl. fold (Value.try_find O).
  destruct (lookup _ d); [reflexivity|discriminate].
Qed.

Lemma prefix_resolves d k p n : has_key (scalar_kstr O k) d = true ->
  any_prefix_resolves O (VObject d) (k :: p) (S n) = true.
Proof.
  intro H. induction n as [|n IH].
  - simpl. rewrite try_find_single. apply has_key_lookup in H. destruct (lookup _ d); [reflexivity|congruence].
  - cbn [any_prefix_resolves] in *. destruct (try_find (VObject d) (firstn (S (S n)) (k :: p))); [reflexivity|exact IH].
Qed.

(* find.rs: the panic at the end of `find` cannot be reached when the first path element
   is a key of the object (which every caller in stack.rs checks first) *)
Lemma find_spec d k p : has_key (scalar_kstr O k) d = true ->
  find (VObject d) (k :: p) =
  match try_find (VObject d) (k :: p) with Some v => Ok v | None => Err EUnknownIndex end.
Proof.
  intro H. unfold Value.find. destruct (try_find (VObject d) (k :: p)) eqn:E; [reflexivity|].
  destruct p as [|j p].
  - rewrite try_find_single in E. apply has_key_lookup in H. destruct (lookup _ d); congruence.
  - cbn [length Nat.sub]. rewrite ?Nat.sub_0_r. rewrite prefix_resolves by assumption. reflexivity.
Qed.

(* A frame is its data and whether it lets a lookup pass on to the frames below. *)
Definition fdata (f : frame) : obj := match f with FPlain d | FSandbox d | FGlobal d | FIndex d => d end.
Definition is_sandbox (f : frame) : bool := match f with FSandbox _ => true | _ => false end.

Lemma try_get_cons k p f q : try_get (k :: p) (f :: q) =
  if has_key (scalar_kstr O k) (fdata f) then try_find (VObject (fdata f)) (k :: p)
  else if is_sandbox f then None else try_get (k :: p) q.
Proof. destruct f; try reflexivity. simpl. unfold has_key. destruct (lookup _ d); reflexivity. Qed.
Lemma get_cons k p f q : get (k :: p) (f :: q) =
  if has_key (scalar_kstr O k) (fdata f)
  then match try_find (VObject (fdata f)) (k :: p) with
       | Some v => Ok v
       | None => Err (if is_sandbox f then EUnknownVariable else EUnknownIndex)
       end
  else if is_sandbox f then Err EUnknownVariable else get (k :: p) q.
Proof.
  destruct f; simpl; try (destruct (has_key _ d) eqn:H; [apply find_spec, H|reflexivity]).
  unfold has_key. destruct (lookup _ d); reflexivity.
Qed.
Lemma resolve_cons key f q : resolve key (f :: q) =
  if has_key key (fdata f) then Some (fdata f) else if is_sandbox f then None else resolve key q.
Proof. destruct f; reflexivity. Qed.
Lemma roots_cons f q : roots (f :: q) = (if is_sandbox f then [] else roots q) ++ keys (fdata f).
Proof. destruct f; reflexivity. Qed.

Lemma get_spec p r :
  match try_get p r with Some v => get p r = Ok v | None => exists c, get p r = Err c end.
Proof.
  destruct p as [|k p]; [destruct r; simpl; eauto|].
  induction r as [|f q IH]; [simpl; eauto|]. rewrite try_get_cons, get_cons.
  destruct (has_key _ (fdata f)); [destruct (try_find _ _); eauto|]. destruct (is_sandbox f); eauto.
Qed.

Theorem get_try_get_agree p r v : get p r = Ok v <-> try_get p r = Some v.
Proof.
  pose proof (get_spec p r) as H. destruct (try_get p r) as [w|]; [rewrite H; split; congruence|].
  destruct H as [c ->]. split; discriminate.
Qed.

Theorem get_never_panics p r : not_panic (get p r) = true /\ get p r <> OutOfFuel.
Proof.
  pose proof (get_spec p r) as H. destruct (try_get p r); [|destruct H as [c H]]; rewrite H; split; (reflexivity || discriminate).
Qed.

Corollary get_ok_or_err p r : (exists v, get p r = Ok v /\ try_get p r = Some v) \/
                              (exists c, get p r = Err c /\ try_get p r = None).
Proof. pose proof (get_spec p r) as H. destruct (try_get p r); [|destruct H]; eauto. Qed.

Theorem try_get_refines_spec p r : try_get p r = spec_try_get O p r.
Proof.
  unfold spec_try_get. destruct p as [|k p]; [destruct r; reflexivity|]. simpl path_key.
  induction r as [|f q IH]; [reflexivity|]. rewrite try_get_cons, resolve_cons.
  destruct (has_key _ (fdata f)); [reflexivity|]. destruct (is_sandbox f); [reflexivity|exact IH].
Qed.

Lemma try_get_name_resolve k r : try_get [SStr k] r <> None <-> resolve k r <> None.
Proof.
  induction r as [|f q IH]; [simpl; tauto|]. rewrite try_get_cons, resolve_cons. simpl scalar_kstr.
  destruct (has_key k (fdata f)) eqn:H; [|destruct (is_sandbox f); [tauto|exact IH]].
  rewrite try_find_single. simpl scalar_kstr. apply has_key_lookup in H. destruct (lookup k (fdata f)); [|contradiction].
  split; discriminate.
Qed.

Theorem roots_exact k r : In k (roots r) <-> try_get [SStr k] r <> None.
Proof.
  rewrite try_get_name_resolve.
  induction r as [|f q IH]; [simpl; split; [tauto|congruence]|]. rewrite roots_cons, resolve_cons.
  rewrite in_app_iff, lookup_in_keys, <- has_key_lookup.
  destruct (has_key k (fdata f)); [split; [discriminate|auto]|].
  destruct (is_sandbox f); [simpl; intuition congruence|]. rewrite IH. intuition congruence.
Qed.

Lemma layer_transparent k p f q : is_sandbox f = false -> has_key (scalar_kstr O k) (fdata f) = false ->
  try_get (k :: p) (f :: q) = try_get (k :: p) q /\ get (k :: p) (f :: q) = get (k :: p) q.
Proof. intros S H. rewrite try_get_cons, get_cons, H, S. split; reflexivity. Qed.
Theorem plain_transparent k p d q : has_key (scalar_kstr O k) d = false ->
  try_get (k :: p) (FPlain d :: q) = try_get (k :: p) q /\ get (k :: p) (FPlain d :: q) = get (k :: p) q.
Proof. exact (layer_transparent k p (FPlain d) q eq_refl). Qed.
Theorem plain_answers k p d q : has_key (scalar_kstr O k) d = true ->
  try_get (k :: p) (FPlain d :: q) = try_find (VObject d) (k :: p).
Proof. intro H; simpl; rewrite H; reflexivity. Qed.
Theorem global_transparent k p d q : has_key (scalar_kstr O k) d = false ->
  try_get (k :: p) (FGlobal d :: q) = try_get (k :: p) q /\ get (k :: p) (FGlobal d :: q) = get (k :: p) q.
Proof. exact (layer_transparent k p (FGlobal d) q eq_refl). Qed.

Theorem sandbox_hides_all p d q q' :
  try_get p (FSandbox d :: q) = try_get p (FSandbox d :: q') /\
  get p (FSandbox d :: q) = get p (FSandbox d :: q') /\
  roots (FSandbox d :: q) = roots (FSandbox d :: q').
Proof. destruct p; repeat split; reflexivity. Qed.
Theorem sandbox_only_own p d q v : try_get p (FSandbox d :: q) = Some v ->
  exists k p', p = k :: p' /\ has_key (scalar_kstr O k) d = true /\ try_find (VObject d) p = Some v.
Proof.
  destruct p as [|k p']; [discriminate|]. rewrite try_get_cons. simpl.
  destruct (has_key _ d) eqn:H; [|discriminate]. eauto.
Qed.

Theorem pop_lookup_unchanged p f q : try_get p (tl (f :: q)) = try_get p q.
Proof. reflexivity. Qed.

Definition plain_without (k : str) (f : frame) : Prop :=
  match f with FPlain e | FIndex e => has_key k e = false | _ => False end.
Theorem assign_visible k v a d b :
  Forall (plain_without k) a ->
  try_get [SStr k] (a ++ FGlobal (upsert k v d) :: b) = Some v.
Proof.
  induction 1 as [|f a Hf _ IH]; simpl app; rewrite try_get_cons; simpl scalar_kstr.
  - unfold has_key, fdata. rewrite lookup_upsert_same, try_find_single. simpl. rewrite lookup_upsert_same. reflexivity.
  - destruct f; try contradiction; simpl in *; rewrite Hf; exact IH.
Qed.
Theorem assign_hidden_by_sandbox k p e a :
  has_key (scalar_kstr O k) e = false -> try_get (k :: p) (FSandbox e :: a) = None.
Proof. intro H. rewrite try_get_cons. simpl. rewrite H. reflexivity. Qed.
Theorem assign_other_names k v j p r r' : scalar_kstr O j <> k -> set_global k v r = Ok r' ->
  try_get (j :: p) r' = try_get (j :: p) r.
Proof.
  intros N (a & d & b & -> & ->)%(set_inv global_writes).
  induction a as [|f a IH]; simpl app; rewrite !try_get_cons; [|rewrite IH; reflexivity].
  simpl fdata. unfold has_key. rewrite lookup_upsert_other by exact N.
  destruct (lookup (scalar_kstr O j) d) eqn:L; [|reflexivity].
  rewrite !try_find_cons_key by (unfold has_key; rewrite ?lookup_upsert_other, L; auto).
  rewrite lookup_upsert_other by exact N. reflexivity.
Qed.
End P.
