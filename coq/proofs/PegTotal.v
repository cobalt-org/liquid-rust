(* PegTotal.v — evaluation of a pest grammar terminates: for every grammar that passes the
   well-formedness check [wf_cert] (no rule reaches itself without consuming; every repetition
   consumes), every expression over it, every text, mode and position, some amount of fuel suffices
   (and then, by ev_mono, every larger amount gives the same answer).  The check is a boolean
   computed on the generated grammar with a certificate (nullable hints and ranks) that
   tools/translate.py emits next to it. *)
From LV Require Import PegTree PegProofs TreeProofs.

Section T.
Variable g : grammar. Variable ws : option nat.
Variable hint : nat -> bool.     (* may the rule succeed without consuming? (an over-approximation) *)
Variable rank : nat -> nat.      (* strictly decreases along calls made before anything is consumed *)
Variable K : nat.
Notation ev' := (ev g ws).

Definition body (n : nat) : pe := match nth_error g n with Some r => r_body r | None => PAny end.
Definition skip_pe : pe := match ws with Some w => PStar (PRef w) | None => PLit [] end.

(* may e match the empty text?  (an over-approximation, from the hints) *)
Fixpoint me (e : pe) : bool :=
  match e with
  | PLit l => match l with [] => true | _ => false end
  | PRng _ _ | PAny => false
  | PSoi | PEoi => true
  | PRef n => hint n
  | PSeq a b => me a && me b
  | PAlt a b => me a || me b
  | PStar _ | POpt _ | PNot _ => true
  | PPlus a => me a
  end.
(* every repetition has a body that cannot match the empty text; every rule referred to exists *)
Fixpoint stars_ok (e : pe) : bool :=
  match e with
  | PSeq a b | PAlt a b => stars_ok a && stars_ok b
  | PStar a | PPlus a => negb (me a) && stars_ok a
  | POpt a | PNot a => stars_ok a
  | PRef n => n <? length g
  | _ => true
  end.
Definition skip_hd_ok (k : nat) : bool := match ws with Some w => rank w <? k | None => true end.
(* every rule that e can enter before a character is consumed has a rank below k *)
Fixpoint hd_ok (k : nat) (e : pe) : bool :=
  match e with
  | PRef n => rank n <? k
  | PSeq a b => hd_ok k a && (if me a then skip_hd_ok k && hd_ok k b else true)
  | PAlt a b => hd_ok k a && hd_ok k b
  | PStar a | PPlus a | POpt a | PNot a => hd_ok k a
  | _ => true
  end.
Definition rule_ok (n : nat) : bool :=
  implb (me (body n)) (hint n) && stars_ok (body n) && hd_ok (rank n) (body n) && (rank n <? K).
Definition wf_cert : bool :=
  forallb rule_ok (seq 0 (length g)) && stars_ok skip_pe && hd_ok K skip_pe.

Definition skipf' := skipf g ws.
(* TM for "terminates": the evaluation finishes, some fuel gives an answer *)
Definition TM (at_ : atom) (la : bool) (e : pe) (s : str) (pos : nat) : Prop := exists f r, ev' f at_ la e s pos = Some r.

Lemma TM_stable at_ la e s pos : TM at_ la e s pos -> exists f r, forall f', f <= f' -> ev' f' at_ la e s pos = Some r.
Proof. intros (f & r & H). exists f, r. intros f' Hf. exact (ev_mono_le g ws f f' _ _ _ _ _ _ Hf H). Qed.
(* the implicit skip is skip_pe in atomic mode, or nothing *)
Lemma skip_stable at_ la s pos : TM Atomic la skip_pe s pos ->
  exists f r, forall f', f <= f' -> skipf g ws f' at_ la s pos = Some r.
Proof.
  intros (f & r & H)%TM_stable. unfold skipf, skip_pe in *.
  destruct at_, ws; try (exists 0; eexists; reflexivity). exists f, r. exact H.
Qed.
Lemma skipf_len f at_ la s pos s' p' t : skipf g ws f at_ la s pos = Some (Some (s', p', t)) -> length s' <= length s.
Proof. unfold skipf. destruct at_, ws; try (intros [= -> _ _]; reflexivity). intros H%ev_span. lia. Qed.

(* mk_*: an expression finishes if its parts do, on the texts they are run on *)
Lemma mk_ref at_ la n s pos : (forall r, nth_error g n = Some r -> TM (mode_of (r_mod r) at_) la (r_body r) s pos) ->
  TM at_ la (PRef n) s pos.
Proof.
  intro H. destruct (nth_error g n) as [r|] eqn:E.
  - destruct (H r eq_refl) as (f & x & Hx). exists (S f). rewrite ev_ref, E, Hx.
    destruct x as [[[s1 p1] t1]|]; eexists; reflexivity.
  - exists 1. rewrite ev_ref, E. eexists; reflexivity.
Qed.
Lemma mk_seq at_ la a b s pos : TM at_ la a s pos ->
  (forall f s1 p1 t1, ev' f at_ la a s pos = Some (Some (s1, p1, t1)) ->
     TM Atomic la skip_pe s1 p1 /\
     forall f2 s2 p2 t2, skipf g ws f2 at_ la s1 p1 = Some (Some (s2, p2, t2)) -> TM at_ la b s2 p2) ->
  TM at_ la (PSeq a b) s pos.
Proof.
  intros (f1 & r1 & H1)%TM_stable Hnext. destruct r1 as [[[s1 p1] t1]|].
  - destruct (Hnext _ _ _ _ (H1 f1 (le_n _))) as [Hs Hb]. apply (skip_stable at_) in Hs as (f2 & r2 & H2). destruct r2 as [[[s2 p2] t2]|].
    + destruct (TM_stable _ _ _ _ _ (Hb _ _ _ _ (H2 f2 (le_n _)))) as (f3 & r3 & H3).
      exists (S (f1 + f2 + f3)). rewrite ev_seq, H1, H2, H3 by lia. destruct r3 as [[[s3 p3] t3]|]; eexists; reflexivity.
    + exists (S (f1 + f2)). rewrite ev_seq, H1, H2 by lia. eexists; reflexivity.
  - exists (S f1). rewrite ev_seq, H1 by lia. eexists; reflexivity.
Qed.
Lemma mk_alt at_ la a b s pos : TM at_ la a s pos -> TM at_ la b s pos -> TM at_ la (PAlt a b) s pos.
Proof.
  intros (f1 & r1 & H1)%TM_stable (f2 & r2 & H2)%TM_stable. exists (S (f1 + f2)).
  rewrite ev_alt, H1 by lia. destruct r1; [eexists; reflexivity|]. rewrite H2 by lia. eexists; reflexivity.
Qed.
Lemma mk_opt at_ la a s pos : TM at_ la a s pos -> TM at_ la (POpt a) s pos.
Proof. intros (f1 & r1 & H1). exists (S f1). rewrite ev_opt, H1. destruct r1; eexists; reflexivity. Qed.
Lemma mk_not at_ la a s pos : TM at_ true a s pos -> TM at_ la (PNot a) s pos.
Proof. intros (f1 & r1 & H1). exists (S f1). rewrite ev_not, H1. destruct r1; eexists; reflexivity. Qed.
Lemma mk_star at_ la a s pos : TM at_ la (PPlus a) s pos -> TM at_ la (PStar a) s pos.
Proof. intros (f1 & r1 & H1). exists (S f1). rewrite ev_star, H1. destruct r1; eexists; reflexivity. Qed.
(* a+ runs what a ~ a+ runs: the two differ only in what they make of a failure after the first a *)
Lemma mk_plus at_ la a s pos : TM at_ la (PSeq a (PPlus a)) s pos -> TM at_ la (PPlus a) s pos.
Proof.
  intros ([|f] & r & H); [discriminate|]. exists (S f). rewrite ev_seq in H. rewrite ev_plus.
  destruct (ev' f at_ la a s pos) as [[[[s1 p1] t1]|]|]; [|eauto..].
  destruct (skipf g ws f at_ la s1 p1) as [[[[s2 p2] t2]|]|]; [|eauto..].
  destruct (ev' f at_ la (PPlus a) s2 p2) as [[[[s3 p3] t3]|]|]; eauto.
Qed.

(* the weights make the skip between the parts of a sequence (at most 3, size_skip) smaller than the sequence, and a+
   smaller than a* *)
Fixpoint size (e : pe) : nat :=
  match e with
  | PSeq a b | PAlt a b => 4 + size a + size b
  | PStar a => 2 + size a
  | PPlus a | POpt a | PNot a => 1 + size a
  | _ => 1
  end.
Lemma size_skip : size skip_pe <= 3.
Proof. unfold skip_pe. destruct ws; cbn [size]; lia. Qed.
Lemma skip_hd_eq k : hd_ok k skip_pe = skip_hd_ok k.
Proof. unfold skip_pe, skip_hd_ok. destruct ws; reflexivity. Qed.

Hypothesis WF : wf_cert = true.

Lemma skip_ok : stars_ok skip_pe = true /\ hd_ok K skip_pe = true.
Proof. unfold wf_cert in WF. apply andb_true_iff in WF as [[_ W1]%andb_true_iff W2]. split; assumption. Qed.
Lemma body_ok n : n < length g ->
  stars_ok (body n) = true /\ hd_ok (rank n) (body n) = true /\ rank n < K /\ (me (body n) = true -> hint n = true).
Proof.
  intro H. unfold wf_cert in WF. apply andb_true_iff in WF as [[W _]%andb_true_iff _].
  rewrite forallb_forall in W. specialize (W n (proj2 (in_seq _ _ _) (conj (Nat.le_0_l n) H))). unfold rule_ok in W.
  apply andb_true_iff in W as [[[R1 R2]%andb_true_iff R3]%andb_true_iff R4%Nat.ltb_lt].
  repeat split; try assumption. intro M. rewrite M in R1. exact R1.
Qed.
Lemma hd_ok_K e : stars_ok e = true -> hd_ok K e = true.
Proof.
  induction e; cbn [stars_ok hd_ok]; intro H; try reflexivity; auto.
  - apply Nat.ltb_lt in H. apply Nat.ltb_lt. apply body_ok. exact H.
  - apply andb_true_iff in H as [Ha Hb]. rewrite IHe1, IHe2 by assumption. rewrite <- skip_hd_eq, (proj2 skip_ok). destruct (me e1); reflexivity.
  - apply andb_true_iff in H as [Ha Hb]. rewrite IHe1, IHe2 by assumption. reflexivity.
  - apply andb_true_iff in H as [_ H]. auto.
  - apply andb_true_iff in H as [_ H]. auto.
Qed.

Lemma me_sound la f at_ e s pos s' p' t : stars_ok e = true ->
  ev' f at_ la e s pos = Some (Some (s', p', t)) -> length s' = length s -> me e = true.
Proof.
  intros So [F H]%ev_ok_tree. revert So. revert f at_ e s pos s' p' F H.
  apply (evf_ok_ind g ws la (fun _ e s _ s' _ _ => stars_ok e = true -> length s' = length s -> me e = true));
    try reflexivity.
  - intros at_ l s pos r ->%strip_prefix_app _ L. rewrite app_length in L. destruct l; [reflexivity|cbn [length] in L; lia].
  - intros at_ a b c r pos _ _ L. cbn [length] in L. lia.
  - intros at_ c r pos _ L. cbn [length] in L. lia.
  - intros f at_ n r s pos s' p' ts En _ IH So L. apply Nat.ltb_lt in So. destruct (body_ok n So) as (B1 & _ & _ & B4).
    unfold body in B1, B4. rewrite En in B1, B4. exact (B4 (IH B1 L)).
  - intros f at_ a b s pos s1 p1 t1 s2 p2 t2 s3 p3 t3 E1%evf_span IH1 E2%skipt_span _ E3%evf_span IH2 [S1 S2]%andb_true_iff L.
    assert (length s1 = length s /\ length s3 = length s2) as [L1 L3] by (clear - E1 E2 E3 L; lia).
    cbn [me]. rewrite (IH1 S1 L1), (IH2 S2 L3). reflexivity.
  - intros at_ a b s pos s' p' F IH [S1 _]%andb_true_iff L. cbn [me]. rewrite (IH S1 L). reflexivity.
  - intros at_ a b s pos s' p' F IH [_ S2]%andb_true_iff L. cbn [me]. rewrite (IH S2 L). apply orb_true_r.
  - intros at_ a s pos s' p' F IH [_ S2]%andb_true_iff L. exact (IH S2 L).
  - intros f at_ a s pos s1 p1 t1 s2 p2 t2 s3 p3 t3 E1%evf_span IH1 E2%skipt_span _ E3%evf_span _ [_ S2]%andb_true_iff L.
    apply IH1; [exact S2|clear - E1 E2 E3 L; lia].
Qed.
(* what follows a in a sequence runs on a text that is no longer, and as long only if a is nullable *)
Lemma mk_seq_len at_ la a b s pos : stars_ok a = true -> TM at_ la a s pos ->
  (forall s1 p1, length s1 <= length s -> (length s1 = length s -> me a = true) -> TM Atomic la skip_pe s1 p1) ->
  (forall s2 p2, length s2 <= length s -> (length s2 = length s -> me a = true) -> TM at_ la b s2 p2) ->
  TM at_ la (PSeq a b) s pos.
Proof.
  intros Sa Ha Hskip Hb. apply mk_seq; [exact Ha|]. intros f s1 p1 t1 E1.
  pose proof (me_sound _ _ _ _ _ _ _ _ _ Sa E1) as M. apply ev_span in E1 as [L0 L1].
  split; [apply Hskip; [lia|exact M]|]. intros f2 s2 p2 t2 L2%skipf_len.
  apply Hb; [lia|]. intro E. apply M. lia.
Qed.

(* Lexicographic induction on the length of the text, the bound on the rank of the rules that can be entered before
   anything is consumed, and the size of the expression. *)
Theorem total : forall len k e s, length s = len -> stars_ok e = true -> hd_ok k e = true ->
  forall at_ la pos, TM at_ la e s pos.
Proof.
  induction len as [len IHlen] using lt_wf_ind.
  induction k as [k IHk] using lt_wf_ind.
  induction e as [e IHe] using (induction_ltof1 _ size). unfold ltof in IHe.
  intros s <- Hs Hh at_ la pos.
  (* what runs later runs on a shorter text, or on the same text and then under the present rank bound *)
  assert (Hnext : forall e' s', stars_ok e' = true -> length s' <= length s ->
            (length s' = length s -> size e' < size e /\ hd_ok k e' = true) -> forall at' la' pos', TM at' la' e' s' pos').
  { intros e' s' So [Lt|E]%Nat.lt_eq_cases Eq.
    - exact (IHlen (length s') Lt K e' s' eq_refl So (hd_ok_K e' So)).
    - destruct (Eq E) as [Sz Hd]. exact (IHe e' Sz s' E So Hd). }
  destruct e; cbn [stars_ok hd_ok] in Hs, Hh; cbn [size] in IHe, Hnext.
  1-5: exists 1; eexists; reflexivity.
  - apply mk_ref. intros r En. apply Nat.ltb_lt in Hs, Hh. destruct (body_ok n Hs) as (B1 & B2 & _).
    unfold body in B1, B2. rewrite En in B1, B2. apply (IHk (rank n) Hh (r_body r) s eq_refl B1 B2).
  - apply andb_true_iff in Hs as [Sa Sb]. apply andb_true_iff in Hh as [Ha Hb].
    apply mk_seq_len; [exact Sa|apply IHe; [clear; lia|reflexivity|exact Sa|exact Ha]| |].
    + intros s1 p1 L M. apply Hnext; [exact (proj1 skip_ok)|exact L|]. intro E. rewrite (M E) in Hb.
      apply andb_true_iff in Hb as [Hk _]. rewrite skip_hd_eq. split; [pose proof size_skip as Sk; clear - Sk; lia|exact Hk].
    + intros s2 p2 L M. apply Hnext; [exact Sb|exact L|]. intro E. rewrite (M E) in Hb.
      apply andb_true_iff in Hb as [_ Hb]. split; [clear; lia|exact Hb].
  - apply andb_true_iff in Hs as [Sa Sb]. apply andb_true_iff in Hh as [Ha Hb].
    apply mk_alt; apply IHe; try assumption; try reflexivity; clear; lia.
  - apply mk_star. apply IHe; [cbn [size]; clear; lia|reflexivity|exact Hs|exact Hh].
  - pose proof Hs as [Sn%negb_true_iff Sa]%andb_true_iff.
    (* the body of a repetition is not nullable: what follows it runs on a shorter text *)
    apply mk_plus, mk_seq_len; [exact Sa|apply IHe; [clear; lia|reflexivity|exact Sa|exact Hh]| |].
    + intros s1 p1 L M. apply Hnext; [exact (proj1 skip_ok)|exact L|]. intro E. rewrite (M E) in Sn. discriminate.
    + intros s2 p2 L M. apply Hnext; [exact Hs|exact L|]. intro E. rewrite (M E) in Sn. discriminate.
  - apply mk_opt. apply IHe; [clear; lia|reflexivity|exact Hs|exact Hh].
  - apply mk_not. apply IHe; [clear; lia|reflexivity|exact Hs|exact Hh].
Qed.

Corollary terminates e s at_ la pos : stars_ok e = true -> exists f r, forall f', f <= f' -> ev' f' at_ la e s pos = Some r.
Proof. intro Hs. apply TM_stable. exact (total (length s) K e s eq_refl Hs (hd_ok_K e Hs) at_ la pos). Qed.
End T.

From LV Require Import Grammar.
Definition hintf (n : nat) : bool := nth n liquid_hint false.
Definition rankf (n : nat) : nat := nth n liquid_rank 0.
Lemma liquid_wf : wf_cert liquid_grammar liquid_ws hintf rankf liquid_K = true.
Proof. vm_compute. reflexivity. Qed.

Theorem every_rule_terminates n s at_ la pos : n < length liquid_grammar ->
  exists f r, forall f', f <= f' -> ev liquid_grammar liquid_ws f' at_ la (PRef n) s pos = Some r.
Proof.
  intro H. apply (terminates liquid_grammar liquid_ws hintf rankf liquid_K liquid_wf). cbn [stars_ok]. apply Nat.ltb_lt. exact H.
Qed.
(* C01: pest's evaluation of the lax top-level rule finishes on every text (with some fuel, hence with any larger
   one), and, with PegProofs.lax_never_rejects, it finishes with a match of the whole text *)
Theorem lax_parse_total s : exists f, forall f', f <= f' ->
  exists pos ts, parse liquid_grammar liquid_ws f' r_LaxLiquidFile s = Some (Some ([], pos, ts)).
Proof.
  destruct (every_rule_terminates r_LaxLiquidFile s NonAtomic false 0) as (f & r & H); [apply Nat.ltb_lt; reflexivity|].
  exists f. intros f' Hf. specialize (H f' Hf). fold (parse liquid_grammar liquid_ws f' r_LaxLiquidFile s) in H.
  destruct r as [[[rest pos] ts]|].
  - rewrite (lax_consumes_everything _ _ _ _ _ H) in H. eauto.
  - exfalso. exact (lax_never_rejects _ _ H).
Qed.
