(* Order facts about str_cmp, SFcompare, and the key-sorted entry lists used by value_cmp. *)
From Coq Require Import SpecFloat Permutation Sorted.
From LV Require Import Filters_seq BaseLemmas ArrProofs.

Lemma str_cmp_refl a : str_cmp a a = Eq.
Proof. induction a as [|x a IH]; simpl; [reflexivity|]. rewrite N.compare_refl. exact IH. Qed.
Lemma str_cmp_eq a b : str_cmp a b = Eq <-> a = b.
Proof.
  split; [|intros ->; apply str_cmp_refl].
  revert b; induction a as [|x a IH]; intros [|y b]; simpl; try discriminate; [reflexivity|].
  destruct (N.compare_spec x y) as [E|E|E]; try discriminate. intro H. subst. f_equal. apply IH; assumption.
Qed.
Lemma str_cmp_antisym a b : str_cmp b a = CompOpp (str_cmp a b).
Proof.
  revert b; induction a as [|x a IH]; intros [|y b]; simpl; try reflexivity.
  rewrite (N.compare_antisym x y). destruct (N.compare x y); simpl; auto.
Qed.
Lemma str_cmp_lt_trans a b c : str_cmp a b = Lt -> str_cmp b c = Lt -> str_cmp a c = Lt.
Proof.
  revert b c; induction a as [|x a IH]; intros [|y b] [|z c]; simpl; try discriminate; try reflexivity.
  destruct (N.compare_spec x y) as [->|E1|E1]; try discriminate;
  destruct (N.compare_spec y z) as [->|E2|E2]; try discriminate; intros H1 H2.
  - eapply IH; eassumption.
  - reflexivity.
  - rewrite (proj2 (N.compare_lt_iff x z) E1). reflexivity.
  - rewrite (proj2 (N.compare_lt_iff x z) (N.lt_trans _ _ _ E1 E2)). reflexivity.
Qed.
Lemma str_eqb_compare a b : str_eqb a b = match str_cmp a b with Eq => true | _ => false end.
Proof.
  revert b; induction a as [|x a IH]; intros [|y b]; simpl; try reflexivity.
  rewrite N.eqb_compare. destruct (x ?= y)%N; [apply IH|reflexivity..].
Qed.

(* lexicographic comparison of lists under a partial comparison of their elements: the shape of
   Iterator::partial_cmp, which value_cmp uses for arrays and for key-sorted entry lists *)
Section Lex.
Context {A : Type} (c : A -> A -> option comparison).
Fixpoint lex (x y : list A) : option comparison :=
  match x, y with
  | [], [] => Some Eq | [], _ :: _ => Some Lt | _ :: _, [] => Some Gt
  | u :: x', w :: y' => match c u w with Some Eq => lex x' y' | r => r end
  end.
Lemma lex_dual : (forall u w, c w u = option_map CompOpp (c u w)) ->
  forall x y, lex y x = option_map CompOpp (lex x y).
Proof.
  intros D x. induction x as [|u x IH]; intros [|w y]; try reflexivity. simpl.
  rewrite (D u w). destruct (c u w) as [[]|]; simpl; try reflexivity. apply IH.
Qed.
Lemma lex_eq x y : lex x y = Some Eq -> Forall2 (fun u w => c u w = Some Eq) x y.
Proof.
  revert y; induction x as [|u x IH]; intros [|w y]; simpl; try discriminate; [constructor|].
  destruct (c u w) as [[]|] eqn:E; try discriminate. constructor; auto.
Qed.
Lemma lex_eq_or_none x y : Forall2 (fun u w => c u w = Some Eq \/ c u w = None) x y ->
  lex x y = Some Eq \/ lex x y = None.
Proof. induction 1 as [|u w x y [E|E] _ IH]; simpl; [auto|rewrite E..]; auto. Qed.
End Lex.

Lemma Pcompare_Eq_antisym m n : Pos.compare_cont Eq n m = CompOpp (Pos.compare_cont Eq m n).
Proof. apply Pos.compare_antisym. Qed.
Lemma SFcompare_antisym a b : SFcompare b a = option_map CompOpp (SFcompare a b).
Proof.
  destruct a as [s| s| |s m e], b as [t| t| |t n f]; simpl; try reflexivity;
    try (destruct s; reflexivity); try (destruct t; reflexivity); try (destruct s, t; reflexivity).
  destruct s, t; simpl; try reflexivity; rewrite (Z.compare_antisym e f); destruct (Z.compare e f); simpl;
    try reflexivity; f_equal; rewrite (Pos.compare_cont_antisym); simpl; try reflexivity.
  rewrite CompOpp_involutive. reflexivity.
Qed.
Lemma f_eqb_sym a b : f_eqb a b = f_eqb b a.
Proof. unfold f_eqb. rewrite (SFcompare_antisym a b). destruct (SFcompare a b) as [[]|]; reflexivity. Qed.
(* where f_cmp orders two floats, == is its answer Eq; where it does not (a NaN) the equation says nothing.
   Stated in the shape of ValueProofs.scalar_eq_via_cmp, whose float arm it is *)
Lemma f_eqb_via_cmp a b :
  f_eqb a b = match f_cmp a b with Some c => match c with Eq => true | _ => false end | None => f_eqb a b end.
Proof. unfold f_eqb, f_cmp. destruct (SFcompare a b); reflexivity. Qed.
Lemma SFcompare_refl a : f_is_nan a = false -> SFcompare a a = Some Eq.
Proof.
  destruct a as [s|s| |s m e]; simpl; try discriminate; intros _; try reflexivity; [destruct s; reflexivity|].
  destruct s; rewrite Z.compare_refl, Pos.compare_cont_refl; reflexivity.
Qed.

(* sort_kvs is the insertion sort of Filters_seq at the comparison of keys, so that sort's theory
   (ArrProofs) is the theory of sort_kvs *)
Definition kcmp (a b : str * value) : comparison := str_cmp (fst a) (fst b).
Lemma sort_kvs_eq : sort_kvs = stable_sort kcmp.
Proof. reflexivity. Qed.
Lemma kcmp_preorder : total_preorder kcmp (fun _ => True).
Proof.
  split; unfold leq, kcmp.
  - intros a b _ _. apply str_cmp_antisym.
  - intros a b c _ _ _. destruct (str_cmp (fst a) (fst b)) eqn:E1; [apply str_cmp_eq in E1; rewrite E1; auto| |discriminate].
    destruct (str_cmp (fst b) (fst c)) eqn:E2; [apply str_cmp_eq in E2; rewrite <- E2, E1; auto| |discriminate].
    rewrite (str_cmp_lt_trans _ _ _ E1 E2). auto.
Qed.

Lemma sort_kvs_perm l : Permutation (sort_kvs l) l.
Proof. rewrite sort_kvs_eq. apply sort_perm. Qed.
Lemma sort_kvs_length l : length (sort_kvs l) = length l.
Proof. apply Permutation_length, sort_kvs_perm. Qed.
Lemma sort_kvs_in x kv : In kv (sort_kvs x) <-> In kv x.
Proof. split; apply Permutation_in; [|apply Permutation_sym]; apply sort_kvs_perm. Qed.

(* the key-sorted entry list depends only on the set of entries: construction independence *)
Theorem sort_kvs_canonical l l' : NoDup (keys l) -> Permutation l l' -> sort_kvs l = sort_kvs l'.
Proof.
  intros Hn Hp. assert (S : forall x, StronglySorted (fun a b => leq kcmp a b = true) (sort_kvs x)).
  { intro x. rewrite sort_kvs_eq. apply (sort_sorted kcmp _ kcmp_preorder), Forall_forall. auto. }
  apply (sorted_perm_eq kcmp); [|apply S..|rewrite !sort_kvs_perm; exact Hp].
  (* entries of l with equivalent keys have the same key, and l has one entry for it *)
  intros [k v] [j w] Ha Hb L1 L2. rewrite sort_kvs_in in Ha, Hb. unfold leq, kcmp in L1, L2. cbn [fst] in L1, L2.
  rewrite (str_cmp_antisym k j) in L2. destruct (str_cmp k j) eqn:E; try discriminate.
  apply str_cmp_eq in E. subst j. pose proof (in_lookup _ _ _ Hn Ha). pose proof (in_lookup _ _ _ Hn Hb). congruence.
Qed.

Lemma insert_kv_map (g : str * value -> str * value) kv l : (forall a, fst (g a) = fst a) ->
  insert_kv (g kv) (map g l) = map g (insert_kv kv l).
Proof.
  intro Hg. induction l as [|h t IH]; simpl; [reflexivity|]. rewrite !Hg.
  destruct (str_cmp (fst kv) (fst h)); simpl; try reflexivity. rewrite IH. reflexivity.
Qed.
Lemma sort_kvs_map g l : (forall a, fst (g a) = fst a) -> sort_kvs (map g l) = map g (sort_kvs l).
Proof. intro Hg. induction l as [|h t IH]; simpl; [reflexivity|]. rewrite IH. apply insert_kv_map; exact Hg. Qed.
