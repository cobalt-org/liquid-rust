(* C08: render isolates the partial — what a rendered partial does never reaches the caller:
   the caller's registers (pending break/continue, cycle positions, ifchanged memory) are untouched and
   every frame of the caller is unchanged except the counter layer (counters are shared, C18).
   include, by contrast, runs the partial's body on the caller's runtime under one more frame that holds
   the arguments (include_is_inline). *)
From LV Require Import Eval BaseLemmas StackProofs ShapeProofs GenInv.

(* Both invariants below refine the shape invariant [esim]; of each primitive of the runtime only the
   added part [Q] remains to be shown. *)
Section Refined.
Variable Q : est -> est -> Prop.
Hypothesis Q_refl : forall s, Q s s.
Hypothesis Q_trans : forall a b c, esim a b -> Q a b -> Q b c -> Q a c.
Hypothesis Q_regs : forall g s, Q s (set_regs g s).
Hypothesis Q_global : forall x v s f', set_global x v (fr s) = Ok f' -> Q s (mkEst f' (rg s)).
Hypothesis Q_index : forall x v s f', set_index x v (fr s) = Ok f' -> Q s (mkEst f' (rg s)).
Hypothesis Q_pop_plain : forall a s s', Q (push_plain a s) s' -> Q s (pop_plain s').
Hypothesis Q_pop_sandbox : forall a s s', Q (push_sandbox a s) s' -> Q s (pop_sandbox s').
Theorem G_render_esim O ps : forall d l, GSH (fun s s' => esim s s' /\ Q s s') (render O ps d l).
Proof.
  apply G_render.
  - split; [apply esim_refl|apply Q_refl].
  - intros a b c [E1 Q1] [E2 Q2]. split; [eapply esim_trans|eapply Q_trans]; eassumption.
  - intros s s' W [E _]. eapply wfr_esim; eassumption.
  - intros g s W. split; [apply esim_set_regs, W|apply Q_regs].
  - intros x v s f' H. split; [eapply esim_global, H|eapply Q_global, H].
  - intros x v s f' H. split; [eapply esim_index, H|eapply Q_index, H].
  - intros a s s' [E H]. split; [apply (esim_pop_plain a), E|apply (Q_pop_plain a), H].
  - intros a s s' [E H]. split; [apply (esim_pop_sandbox a), E|apply (Q_pop_sandbox a), H].
Qed.
End Refined.

(* only the innermost register set is ever written *)
Definition RA (s s' : est) : Prop := esim s s' /\ tl (rg s) = tl (rg s').
Theorem registers_inner_only O ps : forall d l, GSH RA (render O ps d l).
Proof.
  apply G_render_esim; try reflexivity. (* Q_refl, Q_regs, Q_global, Q_index: none of them touches tl (rg s) *)
  - intros a b c _. apply eq_trans.
  - intros a s s' T. exact T.
  - intros a s s' T. exact (f_equal (@tl regs) T).
Qed.

Inductive fstrict : frame -> frame -> Prop :=
| st_plain d : fstrict (FPlain d) (FPlain d)
| st_sand d : fstrict (FSandbox d) (FSandbox d)
| st_glob d : fstrict (FGlobal d) (FGlobal d)
| st_idx d d' : fstrict (FIndex d) (FIndex d').
Definition strict (r r' : rt) := Forall2 fstrict r r'.
Lemma fstrict_refl f : fstrict f f. Proof. destruct f; constructor. Qed.
Lemma strict_refl r : strict r r. Proof. apply Forall2_refl, fstrict_refl. Qed.
Lemma fstrict_trans a b c : fstrict a b -> fstrict b c -> fstrict a c.
Proof. intros H1 H2; inversion H1; subst; inversion H2; subst; constructor. Qed.
Lemma strict_trans a b c : strict a b -> strict b c -> strict a c.
Proof. apply Forall2_trans, fstrict_trans. Qed.

(* below a global layer only counter layers are ever written *)
Definition RB (s s' : est) : Prop :=
  esim s s' /\
  forall top base, fr s = top ++ base -> has_global top = true ->
    exists top' base', fr s' = top' ++ base' /\ length top' = length top /\ strict base base'.

Lemma set_global_app x v top base : has_global top = true ->
  set_global x v (top ++ base) = (do t <- set_global x v top; Ok (t ++ base)).
Proof.
  induction top as [|f top IH]; intro G; [discriminate|].
  destruct f; cbn [app set_global]; try reflexivity; rewrite (IH G); destruct (set_global x v top); reflexivity.
Qed.
Lemma strict_set_index x v r : forall r', set_index x v r = Ok r' -> strict r r'.
Proof.
  induction r as [|f q IH]; intros r' H; [discriminate|].
  destruct f; cbn [set_index] in H;
    try (destruct (set_index x v q); inversion H; constructor; [constructor|apply IH; reflexivity]).
  inversion H. constructor; [constructor|apply strict_refl].
Qed.

Theorem frames_below_global_kept O ps : forall d l, GSH RB (render O ps d l).
Proof.
  apply G_render_esim.
  - intros s top base E _. exists top, base. auto using strict_refl.
  - intros a b c [Sm _] H1 H2 top base E G.
    destruct (H1 top base E G) as (top1 & base1 & F1 & L1 & S1).
    rewrite E, F1 in Sm. apply Forall2_app_split in Sm as [St _]; [|exact L1].
    destruct (H2 top1 base1 F1) as (top2 & base2 & F2 & L2 & S2); [rewrite (proj1 (sim_has_global _ _ St)); exact G|].
    exists top2, base2. repeat split; [exact F2|congruence|eapply strict_trans; eassumption].
  - intros g s top base E _. exists top, base. auto using strict_refl.
  - intros x v s f' H top base E G. rewrite E, (set_global_app _ _ _ _ G) in H.
    destruct (set_global x v top) as [t| | |] eqn:Et; inversion H. exists t, base.
    repeat split; [symmetry; apply (Forall2_length (sim_writes global_writes fs_glob _ _ _ _ Et))|apply strict_refl].
  - intros x v s f' H top base E _. rewrite E in H.
    apply strict_set_index, Forall2_app_inv_l in H as (top' & base' & Ht & Hb & ->).
    exists top', base'. repeat split; [symmetry; apply (Forall2_length Ht)|exact Hb].
  - intros a s s' H top base E G.
    destruct (H (FPlain a :: top) base) as (top' & base' & F & L & S); [cbn; rewrite E; reflexivity|exact G|].
    destruct top' as [|f top']; [discriminate|]. injection L as L. exists top', base'. cbn. rewrite F. auto.
  - intros a s s' H top base E _.
    destruct (H (FGlobal [] :: FSandbox a :: top) base) as (top' & base' & F & L & S); [cbn; rewrite E; reflexivity|reflexivity|].
    destruct top' as [|f1 [|f2 top']]; try discriminate. injection L as L. exists top', base'. cbn. rewrite F. auto.
Qed.

Lemma sandbox_isolates O ps d body a s k :
  match render O ps d body (push_sandbox a s) k with
  | (_, s', _) => rg (pop_sandbox s') = rg s /\ strict (fr s) (fr (pop_sandbox s'))
  end.
Proof.
  pose proof (registers_inner_only O ps d body _ k (wfr_push_sandbox a s)) as HA.
  pose proof (frames_below_global_kept O ps d body _ k (wfr_push_sandbox a s)) as HB.
  destruct (render O ps d body (push_sandbox a s) k) as [[o s'] k']. destruct HA as [_ TA], HB as [_ HB].
  split; [symmetry; exact TA|].
  destruct (HB [FGlobal []; FSandbox a] (fr s) eq_refl eq_refl) as (top' & base' & F & L & S).
  destruct top' as [|f1 [|f2 [|f3 top']]]; try discriminate. cbn [pop_sandbox fr]. rewrite F. exact S.
Qed.
(* whatever the partial does (assign, capture, break, continue, cycle, ifchanged, nested include and
   render ...), after `render 'p', args` the caller's registers are exactly what they were, and its
   frames are what they were except for counter contents *)
Theorem render_isolates_any O ps d p args s k :
  match rnode O ps (render O ps d) (NRender p None args) s k with
  | (_, s', _) => rg s' = rg s /\ strict (fr s) (fr s')
  end.
Proof.
  cbn [rnode].
  destruct (eval_expr O p s) as [[]| | |]; cbn [of_res]; try (split; [reflexivity|apply strict_refl]).
  destruct (eval_args O args s []) as [a| | |]; cbn [of_res]; try (split; [reflexivity|apply strict_refl]).
  destruct (match ps _ with Ok b => Ok b | _ => _ end) as [body| | |]; cbn [of_res]; try (split; [reflexivity|apply strict_refl]).
  pose proof (sandbox_isolates O ps d body a s k) as H.
  destruct (render O ps d body (push_sandbox a s) k) as [[o1 s1] k1]. exact H.
Qed.
Theorem render_isolates O ps d p args s k : wfr s ->
  match rnode O ps (render O ps d) (NRender p None args) s k with
  | (_, s', _) => rg s' = rg s /\ strict (fr s) (fr s')
  end.
Proof. intros _. apply render_isolates_any. Qed.
Lemma try_get_under_sandbox O p F a q q' : try_get O p (F ++ FSandbox a :: q) = try_get O p (F ++ FSandbox a :: q').
Proof.
  destruct p as [|x p]; [destruct F; reflexivity|]. induction F as [|f F IH]; [reflexivity|].
  destruct f; cbn [app try_get path_key]; rewrite ?IH; reflexivity.
Qed.
Lemma get_under_sandbox O p F a q q' : get O p (F ++ FSandbox a :: q) = get O p (F ++ FSandbox a :: q').
Proof.
  destruct p as [|x p]; [destruct F; reflexivity|]. induction F as [|f F IH]; [reflexivity|].
  destruct f; cbn [app get path_key]; rewrite ?IH; reflexivity.
Qed.
Theorem render_view_closed O p a q q' g :
  try_get O p (FGlobal g :: FSandbox a :: q) = try_get O p (FGlobal g :: FSandbox a :: q').
Proof. exact (try_get_under_sandbox O p [FGlobal g] a q q'). Qed.
Theorem include_is_inline O ps rec p args s k pv a body :
  eval_expr O p s = Ok (VScalar pv) -> eval_args O args s [] = Ok a -> ps (to_kstr O (VScalar pv)) = Ok body ->
  rnode O ps rec (NInclude p args) s k = match rec body (push_plain a s) k with (o, s', k') => (o, pop_plain s', k') end.
Proof. intros H1 H2 H3. cbn [rnode]. rewrite H1. cbn [of_res]. rewrite H2. cbn [of_res]. rewrite H3. reflexivity. Qed.
Theorem missing_partial_is_error O ps rec p args s k pv a c :
  eval_expr O p s = Ok (VScalar pv) -> eval_args O args s [] = Ok a -> ps (to_kstr O (VScalar pv)) = Err c ->
  rnode O ps rec (NInclude p args) s k = (OFail c, s, k).
Proof. intros H1 H2 H3. cbn [rnode]. rewrite H1. cbn [of_res]. rewrite H2. cbn [of_res]. rewrite H3. reflexivity. Qed.
