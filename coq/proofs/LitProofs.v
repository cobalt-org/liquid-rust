(* LitProofs.v — for C07: the integer-literal rule of the generated grammar, exactly, and what a numeral in a
   template is: for every integer of the 64-bit range the text `show_Z z` is one Literal pair with one
   IntegerLiteral child spanning exactly the numeral (that parse_i64 reads the numeral back as z is
   FindProofs.integer_numeral_roundtrip). *)
From LV Require Import Peg Grammar PegProofs DecimalProofs.

Fixpoint span_dig (s : str) : str * str :=
  match s with
  | c :: t => if is_digit c then let (a, b) := span_dig t in (c :: a, b) else ([], s)
  | [] => ([], [])
  end.
Definition no_digit_next (rest : str) : Prop := match rest with c :: _ => is_digit c = false | [] => True end.
Lemma span_dig_app ds rest : forallb is_digit ds = true -> no_digit_next rest -> span_dig (ds ++ rest) = (ds, rest).
Proof.
  induction ds as [|c ds IH]; intros Hd Hr; cbn [app].
  - destruct rest as [|c r]; [reflexivity|]. cbn [span_dig]. rewrite Hr. reflexivity.
  - cbn [forallb] in Hd. apply andb_true_iff in Hd as [Hc Hd]. cbn [span_dig]. rewrite Hc, (IH Hd Hr). reflexivity.
Qed.
Lemma span_dig_len s : length (fst (span_dig s)) + length (snd (span_dig s)) = length s.
Proof. induction s as [|c t IH]; [reflexivity|]. cbn [span_dig]. destruct (is_digit c); [destruct (span_dig t); cbn in *; lia|reflexivity]. Qed.
Lemma span_dig_nil s r : span_dig s = ([], r) -> r = s.
Proof. destruct s as [|c t]; cbn [span_dig]; [intros [= <-]; reflexivity|]. destruct (is_digit c); [destruct (span_dig t); discriminate|intros [= <-]; reflexivity]. Qed.

Definition digit : pe := PRng 48%N 57%N.
Lemma ev_rng_digit f at_ la s pos : evg (S f) at_ la digit s pos =
  Some (match s with c :: r => if is_digit c then Some (r, S pos, []) else None | [] => None end).
Proof. reflexivity. Qed.
Lemma digits_plus at_ la : at_ <> NonAtomic -> forall s pos fuel, 2 + length s <= fuel ->
  evg fuel at_ la (PPlus digit) s pos =
  Some (match span_dig s with ([], _) => None | (ds, r) => Some (r, pos + length ds, []) end).
Proof.
  intro Hat. induction s as [|c t IH]; intros pos fuel Hf; (peel 2 fuel); rewrite ev_plus, ev_rng_digit;
    [reflexivity|].
  cbn [span_dig]. destruct (is_digit c); [|reflexivity]. cbn [length] in Hf. rewrite skipf_id, IH by (assumption || lia).
  destruct (span_dig t) as [[|d ds] r] eqn:E; [rewrite (span_dig_nil _ _ E)|]; apply res_eq; cbn [length]; lia.
Qed.

Definition strip_sign (s : str) : nat * str :=
  match s with c :: t => if ((c =? 43) || (c =? 45))%N then (1, t) else (0, s) | [] => (0, []) end.
Definition sign : pe := POpt (PAlt (PLit [43]%N) (PLit [45]%N)).
Lemma strip_sign_len s : length (snd (strip_sign s)) <= length s.
Proof. destruct s as [|c t]; [reflexivity|]. cbn [strip_sign]. destruct ((c =? 43) || (c =? 45))%N; cbn [snd length]; lia. Qed.
Lemma sign_exact f at_ la s pos :
  evg (S (S (S f))) at_ la sign s pos = Some (Some (snd (strip_sign s), pos + fst (strip_sign s), [])).
Proof.
  unfold sign. rewrite ev_opt, ev_alt, !ev_lit. destruct s as [|c t]; [apply res_eq; cbn; lia|].
  rewrite !strip1. cbn [strip_sign]. rewrite !(N.eqb_sym c).
  destruct (43 =? c)%N; [reflexivity|]. destruct (45 =? c)%N; [reflexivity|]. apply res_eq. cbn. lia.
Qed.

Lemma rule_IntegerLiteral : nth_error liquid_grammar r_IntegerLiteral = Some (mkRule MAtomic (PSeq sign (PPlus digit))).
Proof. reflexivity. Qed.
Lemma rule_FloatLiteral : nth_error liquid_grammar r_FloatLiteral =
  Some (mkRule MAtomic (PSeq sign (PSeq (PPlus digit) (PSeq (PLit [46]%N) (PPlus digit))))).
Proof. reflexivity. Qed.
(* IntegerLiteral = @{ ("+" | "-")? ~ ASCII_DIGIT+ }, in any mode that produces pairs *)
Theorem integer_rule_exact at_ s pos fuel : at_ <> Atomic -> 10 + length s <= fuel ->
  evg fuel at_ false (PRef r_IntegerLiteral) s pos =
  Some (let (sg, s1) := strip_sign s in
        match span_dig s1 with
        | ([], _) => None
        | (ds, r) => Some (r, pos + sg + length ds, [mkTok r_IntegerLiteral pos (pos + sg + length ds)])
        end).
Proof.
  intros Hat Hf. peel 5 fuel. pose proof (strip_sign_len s) as Hl.
  erewrite ev_rule by apply rule_IntegerLiteral. rewrite not_atomic by exact Hat.
  rewrite ev_seq, sign_exact, skipf_id, digits_plus by (discriminate || lia).
  destruct (strip_sign s) as [sg s1]. cbn [fst snd]. destruct (span_dig s1) as [[|d ds] r]; reflexivity.
Qed.

Lemma show_N_digits n : forallb is_digit (show_N n) = true.
Proof. unfold show_N. apply digits_all. reflexivity. Qed.
Lemma show_N_nonempty p : show_N (Npos p) <> [].
Proof. destruct (show_N_head (Npos p)) as (c & t & -> & _). discriminate. Qed.
Lemma digit_not_sign c : is_digit c = true -> ((c =? 43) || (c =? 45))%N = false.
Proof. intros [N45 N43]%is_digit_not_sign. apply orb_false_iff. split; apply N.eqb_neq; assumption. Qed.

Definition numeral_head (h : char) : Prop := is_digit h = true \/ h = 45%N.
Lemma numeral_lex z rest : no_digit_next rest -> exists sg ds,
  strip_sign (show_Z z ++ rest) = (sg, ds ++ rest) /\ span_dig (ds ++ rest) = (ds, rest) /\ ds <> [] /\
  length (show_Z z) = sg + length ds /\ exists h t, show_Z z ++ rest = h :: t /\ numeral_head h.
Proof.
  intro Hr. destruct z as [|p|p]; cbn [show_Z].
  - exists 0, [48%N]. repeat split; [exact (span_dig_app [48%N] rest eq_refl Hr)|discriminate|].
    exists 48%N, rest. split; [reflexivity|left; reflexivity].
  - pose proof (show_N_digits (Npos p)) as D. destruct (show_N_head (Npos p)) as (c & ds & E & Dc). rewrite E in *.
    exists 0, (c :: ds). cbn [app strip_sign]. rewrite (digit_not_sign c Dc).
    repeat split; [exact (span_dig_app (c :: ds) rest D Hr)|discriminate|].
    exists c, (ds ++ rest). split; [reflexivity|left; exact Dc].
  - exists 1, (show_N (Npos p)). repeat split; [apply span_dig_app; [apply show_N_digits|exact Hr]|apply show_N_nonempty|].
    exists 45%N, (show_N (Npos p) ++ rest). split; [reflexivity|right; reflexivity].
Qed.

Theorem numeral_is_one_integer_literal z rest at_ pos fuel : no_digit_next rest -> at_ <> Atomic ->
  10 + length (show_Z z ++ rest) <= fuel ->
  evg fuel at_ false (PRef r_IntegerLiteral) (show_Z z ++ rest) pos =
  Some (Some (rest, pos + length (show_Z z), [mkTok r_IntegerLiteral pos (pos + length (show_Z z))])).
Proof.
  intros Hr Hat Hf. rewrite integer_rule_exact by assumption.
  destruct (numeral_lex z rest Hr) as (sg & ds & -> & -> & Hne & -> & _). destruct ds; [congruence|].
  rewrite Nat.add_assoc. reflexivity.
Qed.

Definition no_fraction_next (rest : str) : Prop :=
  match rest with 46%N :: c :: _ => is_digit c = false | _ => True end.

Lemma float_rule_no_fraction at_ la s pos fuel : 12 + length s <= fuel ->
  (let (sg, s1) := strip_sign s in no_fraction_next (snd (span_dig s1))) ->
  evg fuel at_ la (PRef r_FloatLiteral) s pos = Some None.
Proof.
  intros Hf Hn. peel 7 fuel. pose proof (strip_sign_len s) as Hl.
  erewrite ev_rule by apply rule_FloatLiteral.
  rewrite ev_seq, sign_exact, skipf_id, ev_seq, digits_plus by (discriminate || lia).
  destruct (strip_sign s) as [sg s1]. cbn [fst snd] in *. pose proof (span_dig_len s1) as SL.
  destruct (span_dig s1) as [[|d ds] r]; [reflexivity|]. cbn [fst snd length] in SL, Hn.
  rewrite skipf_id, ev_seq, ev_lit by discriminate. destruct r as [|c r']; [reflexivity|]. rewrite strip1.
  destruct (N.eqb_spec 46 c) as [<-|_]; [|reflexivity]. cbn [length] in SL.
  rewrite skipf_id, digits_plus by (discriminate || lia).
  destruct r' as [|c' r'']; [reflexivity|]. cbn [span_dig]. rewrite Hn. reflexivity.
Qed.

Lemma head_neq h k : numeral_head h -> (k <? 45)%N = true \/ (57 <? k)%N = true -> (k =? h)%N = false.
Proof.
  intros [H | ->] Hk; apply N.eqb_neq.
  - apply is_digit_range in H. destruct Hk as [Hk|Hk]; apply N.ltb_lt in Hk; lia.
  - destruct Hk as [Hk|Hk]; apply N.ltb_lt in Hk; lia.
Qed.
(* every alternative of these rules begins with a literal whose first character is neither a digit nor a minus *)
Lemma simple_literals_fail (which : nat) at_ la h t pos fuel : numeral_head h -> 6 <= fuel ->
  which = r_NilLiteral \/ which = r_EmptyLiteral \/ which = r_BlankLiteral \/ which = r_StringLiteral ->
  evg fuel at_ la (PRef which) (h :: t) pos = Some None.
Proof.
  intros Hh Hf Hw. peel 5 fuel.
  destruct Hw as [-> | [-> | [-> | ->]]]; (erewrite ev_rule by reflexivity);
    rewrite ?ev_alt, ?ev_seq, ?ev_lit; cbn [strip_prefix];
    rewrite ?(head_neq _ _ Hh) by (first [left; reflexivity | right; reflexivity]); reflexivity.
Qed.

Lemma rule_Literal : exists e, nth_error liquid_grammar r_Literal =
  Some (mkRule MNormal (PAlt (PRef r_NilLiteral) (PAlt (PRef r_EmptyLiteral) (PAlt (PRef r_BlankLiteral) (PAlt (PRef r_StringLiteral)
                       (PAlt (PRef r_FloatLiteral) (PAlt (PRef r_IntegerLiteral) e))))))).
Proof. eexists. reflexivity. Qed.
Theorem numeral_is_a_literal z rest at_ pos fuel : no_digit_next rest -> no_fraction_next rest -> at_ <> Atomic ->
  24 + length (show_Z z ++ rest) <= fuel ->
  evg fuel at_ false (PRef r_Literal) (show_Z z ++ rest) pos =
  Some (Some (rest, pos + length (show_Z z),
              [mkTok r_Literal pos (pos + length (show_Z z)); mkTok r_IntegerLiteral pos (pos + length (show_Z z))])).
Proof.
  intros Hr Hfr Hat Hf. peel 7 fuel.
  pose proof (numeral_is_one_integer_literal z rest at_ pos fuel Hr Hat) as HI.
  pose proof (float_rule_no_fraction at_ false (show_Z z ++ rest) pos (S fuel)) as HF.
  destruct (numeral_lex z rest Hr) as (sg & ds & Es & Ed & _ & _ & h & t & Eh & Hh). rewrite Es, Ed in HF.
  destruct rule_Literal as [e R]. rewrite (ev_rule _ _ _ _ _ _ _ _ _ _ R), not_atomic by exact Hat.
  rewrite Eh in *. rewrite !ev_alt.
  rewrite (simple_literals_fail r_NilLiteral), (simple_literals_fail r_EmptyLiteral), (simple_literals_fail r_BlankLiteral),
    (simple_literals_fail r_StringLiteral), HF, HI by (assumption || lia || auto).
  reflexivity.
Qed.
