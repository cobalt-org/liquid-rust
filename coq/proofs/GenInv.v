(* The evaluator preserves any relation between the state before and after that is a preorder,
   is kept by register updates, global/counter assignments and by popping scope frames: EvalLogic's
   walk for specifications that speak of the runtime only, at the precondition [wfr] of ShapeProofs.v.
   IsoProofs.v (render isolation) instantiates it. *)
From LV Require Import Eval EvalLogic ShapeProofs.

Section Generic.
Variable Rl : est -> est -> Prop.
Hypothesis Rl_refl : forall s, Rl s s.
Hypothesis Rl_trans : forall a b c, Rl a b -> Rl b c -> Rl a c.
Hypothesis Rl_wfr : forall s s', wfr s -> Rl s s' -> wfr s'.
Hypothesis Rl_regs : forall g s, wfr s -> Rl s (set_regs g s).
Hypothesis Rl_global : forall x v s f', set_global x v (fr s) = Ok f' -> Rl s (mkEst f' (rg s)).
Hypothesis Rl_index : forall x v s f', set_index x v (fr s) = Ok f' -> Rl s (mkEst f' (rg s)).
Hypothesis Rl_pop_plain : forall a s s', Rl (push_plain a s) s' -> Rl s (pop_plain s').
Hypothesis Rl_pop_sandbox : forall a s s', Rl (push_sandbox a s) s' -> Rl s (pop_sandbox s').

Definition GSH (f : est -> sink -> out) : Prop :=
  forall s k, wfr s -> match f s k with (_, s', _) => Rl s s' end.

Theorem G_render O ps : forall d l, GSH (render O ps d l).
Proof. apply (keeps_render O ps wfr Rl); auto using wfr_push_plain, wfr_push_sandbox. Qed.
End Generic.
