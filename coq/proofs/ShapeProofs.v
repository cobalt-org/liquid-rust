(* C04: the shape invariant of the evaluator — a render never changes the kinds of the scope
   frames nor the contents of plain (caller data, loop, include-argument) and sandbox frames; only the
   global layers (assign, capture), the counter layer and the registers are ever written. *)
From LV Require Import Eval BaseLemmas StackProofs EvalProofs EvalLogic.

(* the shape of a runtime: fsim keeps the kind of a frame, and its contents unless it is a global or counter
   layer; esim adds the number of register sets *)
Inductive fsim : frame -> frame -> Prop :=
| fs_plain d : fsim (FPlain d) (FPlain d)
| fs_sand d : fsim (FSandbox d) (FSandbox d)
| fs_glob d d' : fsim (FGlobal d) (FGlobal d')
| fs_idx d d' : fsim (FIndex d) (FIndex d').
Definition sim (r r' : rt) := Forall2 fsim r r'.
Definition esim (s s' : est) := sim (fr s) (fr s') /\ length (rg s) = length (rg s').
Definition wfr (s : est) := rg s <> [].

Lemma fsim_refl f : fsim f f. Proof. destruct f; constructor. Qed.
Lemma sim_refl r : sim r r. Proof. apply Forall2_refl, fsim_refl. Qed.
Lemma fsim_trans a b c : fsim a b -> fsim b c -> fsim a c.
Proof. intros H1 H2; inversion H1; subst; inversion H2; subst; constructor. Qed.
Lemma sim_trans a b c : sim a b -> sim b c -> sim a c.
Proof. apply Forall2_trans, fsim_trans. Qed.
Lemma esim_refl s : esim s s. Proof. split; [apply sim_refl|reflexivity]. Qed.
Lemma esim_trans a b c : esim a b -> esim b c -> esim a c.
Proof. intros [H1 L1] [H2 L2]. split; [eapply sim_trans; eassumption|congruence]. Qed.
Lemma wfr_esim s s' : wfr s -> esim s s' -> wfr s'.
Proof. unfold wfr. intros W [_ L] E. rewrite E in L. destruct (rg s); [congruence|discriminate]. Qed.
Lemma sim_has_global r r' : sim r r' -> has_global r' = has_global r /\ has_index r' = has_index r.
Proof.
  induction 1 as [|a b r r' Hf _ IH]; [split; reflexivity|].
  destruct IH as [IG II]. destruct Hf; cbn; auto.
Qed.
Lemma sim_tl a b : sim a b -> sim (tl a) (tl b).
Proof. intros H; inversion H; subst; simpl; [constructor|assumption]. Qed.

Lemma sim_writes {K notK hasK set site} (W : writes_first K notK hasK set site) :
  (forall d d', fsim (K d) (K d')) -> forall x v r r', set x v r = Ok r' -> sim r r'.
Proof.
  intros HK x v r r' (a & d & b & -> & ->)%(set_inv W).
  apply Forall2_app; [apply sim_refl|constructor; [apply HK|apply sim_refl]].
Qed.
Lemma esim_set_regs g s : wfr s -> esim s (set_regs g s).
Proof. unfold wfr, set_regs, esim. intro W. simpl. split; [apply sim_refl|]. destruct (rg s); [congruence|reflexivity]. Qed.
Lemma esim_frames f s : sim (fr s) f -> esim s (mkEst f (rg s)).
Proof. intro H. split; [exact H|reflexivity]. Qed.

Definition SH (f : est -> sink -> out) : Prop :=
  forall s k, wfr s -> match f s k with (_, s', _) => esim s s' end.

Lemma esim_pop_plain a s s' : esim (push_plain a s) s' -> esim s (pop_plain s').
Proof. intros [H L]. split; [apply sim_tl in H; exact H|exact L]. Qed.
Lemma wfr_push_plain a s : wfr s -> wfr (push_plain a s). Proof. auto. Qed.
Lemma esim_pop_sandbox a s s' : esim (push_sandbox a s) s' -> esim s (pop_sandbox s').
Proof.
  intros [H L]. split; [apply sim_tl in H; apply sim_tl in H; exact H|].
  simpl in L. unfold pop_sandbox; simpl. destruct (rg s'); simpl in *; [discriminate|lia].
Qed.
Lemma wfr_push_sandbox a s : wfr (push_sandbox a s). Proof. unfold wfr; simpl; discriminate. Qed.

Lemma esim_global x v s f' : set_global x v (fr s) = Ok f' -> esim s (mkEst f' (rg s)).
Proof. intro H. apply esim_frames, (sim_writes global_writes fs_glob _ _ _ _ H). Qed.
Lemma esim_index x v s f' : set_index x v (fr s) = Ok f' -> esim s (mkEst f' (rg s)).
Proof. intro H. apply esim_frames, (sim_writes index_writes fs_idx _ _ _ _ H). Qed.

(* [esim] is a preorder that every primitive of the runtime respects: an instance of EvalLogic's walk *)
Theorem SH_rnode O ps rec : (forall l, SH (rec l)) -> forall n, SH (rnode O ps rec n).
Proof.
  exact (keeps_rnode O ps wfr esim esim_refl esim_trans wfr_esim esim_set_regs esim_global esim_index
           wfr_push_plain esim_pop_plain (fun a s _ => wfr_push_sandbox a s) esim_pop_sandbox rec).
Qed.
Theorem shape_inv O ps : forall d l, SH (render O ps d l).
Proof.
  exact (keeps_render O ps wfr esim esim_refl esim_trans wfr_esim esim_set_regs esim_global esim_index
           wfr_push_plain esim_pop_plain (fun a s _ => wfr_push_sandbox a s) esim_pop_sandbox).
Qed.

Corollary caller_data_untouched O ps depth t data k :
  match render_top O ps depth t data k with
  | (_, s', _) => exists g c, fr s' = [FGlobal g; FPlain data; FIndex c]
  end.
Proof.
  unfold render_top. pose proof (shape_inv O ps (S depth) t (est_build data) k) as H.
  assert (W : wfr (est_build data)) by (unfold wfr; simpl; discriminate). specialize (H W).
  destruct (render O ps (S depth) t (est_build data) k) as [[o s'] k']. destruct H as [H _].
  simpl in H. inversion H as [|? ? ? ? F1 T1]; subst. inversion T1 as [|? ? ? ? F2 T2]; subst.
  inversion T2 as [|? ? ? ? F3 T3]; subst. inversion T3; subst.
  inversion F1; inversion F2; inversion F3; subst. eauto.
Qed.

Theorem build_order data : fr (est_build data) = [FGlobal []; FPlain data; FIndex []].
Proof. reflexivity. Qed.
Theorem assign_persists O ps rec x v s k a d b : fr s = a ++ FGlobal d :: b -> Forall StackProofs.not_global a ->
  rnode O ps rec (NAssign x (ELit v, [])) s k = (ODone, mkEst (a ++ FGlobal (upsert x v d) :: b) (rg s), k).
Proof.
  intros E Ha. cbn [rnode eval_chain_e fst snd eval_expr apply_filters bind of_res].
  rewrite E, (set_first global_writes x v a d b Ha). reflexivity.
Qed.
Theorem assign_then_visible O x v a d b :
  Forall (StackProofs.plain_without x) a -> try_get O [SStr x] (a ++ FGlobal (upsert x v d) :: b) = Some v.
Proof. apply StackProofs.assign_visible. Qed.
(* capture binds exactly the text its body writes, and writes nothing itself *)
Theorem capture_exact O ps rec x body s k :
  match rlist O ps rec body s sink0 with
  | (ODone, s', kc) =>
      forall t f', decode (acc kc) = Some t -> set_global x (VScalar (SStr t)) (fr s') = Ok f' ->
      rnode O ps rec (NCapture x body) s k = (ODone, mkEst f' (rg s'), k)
  | (o, s', _) => o <> ODone -> rnode O ps rec (NCapture x body) s k = (o, s', k)
  end.
Proof.
  rewrite rnode_capture. destruct (rlist O ps rec body s sink0) as [[o s'] kc].
  destruct o; [intros t f' Ht Hf; rewrite Ht, Hf; reflexivity|intros _; reflexivity|intros _; reflexivity].
Qed.
(* a loop variable (and forloop) stops existing when the loop ends; include arguments when the
   include returns: after ANY node the frames are the ones before it, only global/counter layers differ *)
Corollary frames_restored O ps d n s k : wfr s ->
  match rnode O ps (render O ps d) n s k with (_, s', _) => sim (fr s) (fr s') /\ length (rg s) = length (rg s') end.
Proof. intro W. apply (SH_rnode O ps (render O ps d) (shape_inv O ps d) n s k W). Qed.
