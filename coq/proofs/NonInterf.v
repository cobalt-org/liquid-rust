(* The isolation half of C08: what a partial rendered by `render` writes, and whether it fails, depends only
   on its arguments, the shared counters and the partial store — not on anything else in the caller's scope
   or registers.  A relational (two-run) invariant through the whole evaluator. *)
From LV Require Import Eval EvalInd EvalProofs FindProofs IsoProofs.

Section NI.
Variable O : oracle.

Definition noidx (F : rt) : Prop := Forall (fun f => match f with FIndex _ => False | _ => True end) F.
Fixpoint ixobj (q : rt) : option obj :=
  match q with [] => None | FIndex d :: _ => Some d | _ :: q' => ixobj q' end.
Definition above (F : rt) (g a : obj) (q : rt) : rt := F ++ FGlobal g :: FSandbox a :: q.

Lemma above_app F g a q : above F g a q = (F ++ [FGlobal g]) ++ FSandbox a :: q.
Proof. unfold above. rewrite <- app_assoc. reflexivity. Qed.
Lemma get_index_above F g a q k : noidx F -> get_index k (above F g a q) = get_index k q.
Proof.
  unfold above. induction 1 as [|f F Hf _ IH]; [reflexivity|]. cbn [app]. destruct f; try contradiction; exact IH.
Qed.
Lemma get_index_ixobj q k : get_index k q = match ixobj q with Some d => lookup k d | None => None end.
Proof. induction q as [|f q IH]; [reflexivity|]. destruct f; cbn [get_index ixobj]; auto. Qed.
Lemma set_index_ixobj q k v : match ixobj q with
  | Some d => exists q', set_index k v q = Ok q' /\ ixobj q' = Some (upsert k v d)
  | None => set_index k v q = Panic site_core_set_index end.
Proof.
  induction q as [|f q IH]; [reflexivity|]. destruct f; cbn [set_index ixobj];
    try (destruct (ixobj q) as [d0|]; [destruct IH as (q' & -> & E); eexists; split; [reflexivity|exact E]|rewrite IH; reflexivity]).
  eexists; split; reflexivity.
Qed.
Lemma set_index_above F g a q k v : noidx F ->
  set_index k v (above F g a q) = match set_index k v q with Ok q' => Ok (above F g a q') | Err c => Err c | Panic n => Panic n | OutOfFuel => OutOfFuel end.
Proof.
  unfold above. induction 1 as [|f F Hf _ IH]; cbn [app].
  - cbn [set_index]. destruct (set_index k v q); reflexivity.
  - destruct f; try contradiction; cbn [set_index]; rewrite IH; destruct (set_index k v q); reflexivity.
Qed.
Lemma set_global_above F g a k v : noidx F -> exists F' g', length F' = length F /\ noidx F' /\
  forall q, set_global k v (above F g a q) = Ok (above F' g' a q).
Proof.
  unfold above. induction 1 as [|f F Hf HF (F' & g' & L & N & E)].
  - exists [], (upsert k v g). repeat split. constructor.
  - destruct f as [d|d|d|d]; try contradiction;
      [exists (FPlain d :: F'), g'|exists (FSandbox d :: F'), g'|exists (FGlobal (upsert k v d) :: F), g];
      (split; [cbn; congruence|]; split; [constructor; [exact I|assumption]|]; intro q; cbn [app set_global]; rewrite ?E; reflexivity).
Qed.

(* two runtimes a computation started in a fresh sandbox cannot tell apart: above the sandbox (argument object a,
   global layer g) the same n frames F, none a counter layer, and the same m + 1 register sets G; below it anything,
   with the same counters *)
Definition R (n m : nat) (s1 s2 : est) : Prop :=
  exists F g a q1 q2 G r1 r2,
    fr s1 = above F g a q1 /\ fr s2 = above F g a q2 /\ length F = n /\ noidx F /\
    rg s1 = G ++ r1 /\ rg s2 = G ++ r2 /\ length G = S m /\ ixobj q1 = ixobj q2.
Lemma R_intro F g a q1 q2 g0 G r1 r2 : noidx F -> ixobj q1 = ixobj q2 ->
  R (length F) (length G) (mkEst (above F g a q1) (g0 :: G ++ r1)) (mkEst (above F g a q2) (g0 :: G ++ r2)).
Proof. intros N IX. exists F, g, a, q1, q2, (g0 :: G), r1, r2. repeat split; assumption. Qed.
(* R in the form one destructs: the runtimes themselves, not equations about them *)
Inductive Rview : nat -> nat -> est -> est -> Prop :=
  Rview_intro F g a q1 q2 g0 G r1 r2 : noidx F -> ixobj q1 = ixobj q2 ->
    Rview (length F) (length G) (mkEst (above F g a q1) (g0 :: G ++ r1)) (mkEst (above F g a q2) (g0 :: G ++ r2)).
Lemma R_view n m s1 s2 : R n m s1 s2 -> Rview n m s1 s2.
Proof.
  intros (F & g & a & q1 & q2 & G & r1 & r2 & E1 & E2 & <- & N & G1 & G2 & LG & IX).
  destruct G as [|g0 G]; [discriminate|]. injection LG as <-.
  destruct s1 as [f1 g1], s2 as [f2 g2]; cbn [fr rg] in *; subst. constructor; assumption.
Qed.

Definition agree (s1 s2 : est) : Prop :=
  (forall p, get O p (fr s1) = get O p (fr s2)) /\ (forall p, try_get O p (fr s1) = try_get O p (fr s2)).
Lemma R_agree n m s1 s2 : R n m s1 s2 -> agree s1 s2.
Proof.
  intros [F g a q1 q2 g0 G r1 r2 _ _]%R_view.
  split; intro p; cbn [fr]; rewrite !above_app; [apply get_under_sandbox|apply try_get_under_sandbox].
Qed.

Section Reads.
Variables s1 s2 : est.
Hypothesis A : agree s1 s2.
Lemma eval_expr_agree e : eval_expr O e s1 = eval_expr O e s2.
Proof.
  induction e as [v|r idx IH] using expr_ind'; [reflexivity|]. rewrite !eval_var_unfold.
  assert (E : eval_indices O idx s1 = eval_indices O idx s2).
  { induction IH as [|e t He _ IHt]; [reflexivity|]. cbn [eval_indices]. rewrite He, IHt. reflexivity. }
  rewrite E. destruct (eval_indices O idx s2); cbn [bind]; try reflexivity. apply (proj1 A).
Qed.
Lemma try_eval_expr_agree e : try_eval_expr O e s1 = try_eval_expr O e s2.
Proof.
  induction e as [v|r idx IH] using expr_ind'; [reflexivity|]. cbn [try_eval_expr].
  match goal with |- match ?p1 with _ => _ end = match ?p2 with _ => _ end => assert (E : p1 = p2) end.
  { induction IH as [|e t He _ IHt]; [reflexivity|]. rewrite He, IHt. reflexivity. }
  rewrite E. match goal with |- match ?x with _ => _ end = _ => destruct x end; [apply (proj2 A)|reflexivity].
Qed.
Lemma eval_exprs_agree l : eval_exprs O l s1 = eval_exprs O l s2.
Proof. induction l as [|e t IH]; [reflexivity|]. cbn [eval_exprs]. rewrite eval_expr_agree, IH. reflexivity. Qed.
Lemma apply_filters_agree fs : forall v, apply_filters O v fs s1 = apply_filters O v fs s2.
Proof.
  induction fs as [|[f args] t IH]; intro v; [reflexivity|]. cbn [apply_filters]. rewrite eval_exprs_agree.
  destruct (eval_exprs O args s2); cbn [bind]; try reflexivity. destruct (apply_filter O f v a); cbn [bind]; try reflexivity. apply IH.
Qed.
Lemma eval_chain_agree fc : eval_chain_e O fc s1 = eval_chain_e O fc s2.
Proof. unfold eval_chain_e. rewrite eval_expr_agree. destruct (eval_expr O (fst fc) s2); cbn [bind]; try reflexivity. apply apply_filters_agree. Qed.
Lemma eval_cond_agree c : eval_cond O c s1 = eval_cond O c s2.
Proof.
  induction c as [l o r|l|a IHa b IHb|a IHa b IHb]; cbn [eval_cond];
    rewrite ?eval_expr_agree, ?try_eval_expr_agree, ?IHa, ?IHb; reflexivity.
Qed.
Lemma int_arg_agree e : int_arg O e s1 = int_arg O e s2.
Proof. unfold int_arg. rewrite eval_expr_agree. reflexivity. Qed.
Lemma eval_range_agree r : eval_range O r s1 = eval_range O r s2.
Proof. destruct r; cbn [eval_range]; rewrite ?eval_expr_agree, ?int_arg_agree; reflexivity. Qed.
Lemma attr_usize_agree a : attr_usize O a s1 = attr_usize O a s2.
Proof. destruct a; cbn [attr_usize]; rewrite ?eval_expr_agree; reflexivity. Qed.
Lemma eval_args_agree args : forall acc0, eval_args O args s1 acc0 = eval_args O args s2 acc0.
Proof. induction args as [|[x e] t IH]; intro acc0; [reflexivity|]. cbn [eval_args]. rewrite try_eval_expr_agree. destruct (try_eval_expr O e s2); [apply IH|reflexivity]. Qed.
End Reads.

Lemma R_regs n m s1 s2 : R n m s1 s2 -> get_regs s1 = get_regs s2 /\ forall g, R n m (set_regs g s1) (set_regs g s2).
Proof.
  intros [F g a q1 q2 g0 G r1 r2 N IX]%R_view.
  split; [reflexivity|]. intro g'. exact (R_intro F g a q1 q2 g' G r1 r2 N IX).
Qed.
Lemma R_interrupted n m s1 s2 : R n m s1 s2 -> interrupted s1 = interrupted s2.
Proof. intro H. unfold interrupted. rewrite (proj1 (R_regs _ _ _ _ H)). reflexivity. Qed.
Lemma R_push_plain n m s1 s2 d : R n m s1 s2 -> R (S n) m (push_plain d s1) (push_plain d s2).
Proof.
  intros [F g a q1 q2 g0 G r1 r2 N IX]%R_view.
  refine (R_intro (FPlain d :: F) g a q1 q2 g0 G r1 r2 _ IX). constructor; [exact I|exact N].
Qed.
Lemma R_pop_plain n m s1 s2 : R (S n) m s1 s2 -> R n m (pop_plain s1) (pop_plain s2).
Proof.
  intros H%R_view. inversion H as [F g a q1 q2 g0 G r1 r2 N IX L]. destruct F as [|f F]; [discriminate|]. injection L as <-.
  exact (R_intro F g a q1 q2 g0 G r1 r2 (Forall_inv_tail N) IX).
Qed.
Lemma R_push_sandbox n m s1 s2 d : R n m s1 s2 -> R (S (S n)) (S m) (push_sandbox d s1) (push_sandbox d s2).
Proof.
  intros [F g a q1 q2 g0 G r1 r2 N IX]%R_view.
  refine (R_intro (FGlobal [] :: FSandbox d :: F) g a q1 q2 regs0 (g0 :: G) r1 r2 _ IX). repeat constructor. exact N.
Qed.
Lemma R_pop_sandbox n m s1 s2 : R (S (S n)) (S m) s1 s2 -> R n m (pop_sandbox s1) (pop_sandbox s2).
Proof.
  intros H%R_view. inversion H as [F g a q1 q2 g0 G r1 r2 N IX L LG].
  destruct F as [|f [|f' F]]; try discriminate. destruct G as [|g1 G]; [discriminate|]. injection L as <-. injection LG as <-.
  exact (R_intro F g a q1 q2 g1 G r1 r2 (Forall_inv_tail (Forall_inv_tail N)) IX).
Qed.
Lemma R_set_global n m s1 s2 x v : R n m s1 s2 ->
  exists f1 f2, set_global x v (fr s1) = Ok f1 /\ set_global x v (fr s2) = Ok f2 /\ R n m (mkEst f1 (rg s1)) (mkEst f2 (rg s2)).
Proof.
  intros [F g a q1 q2 g0 G r1 r2 N IX]%R_view.
  destruct (set_global_above F g a x v N) as (F' & g' & <- & N' & E).
  exists (above F' g' a q1), (above F' g' a q2). repeat split; [apply E..|]. exact (R_intro F' g' a q1 q2 g0 G r1 r2 N' IX).
Qed.
Lemma R_get_index n m s1 s2 x : R n m s1 s2 -> get_index x (fr s1) = get_index x (fr s2).
Proof.
  intros [F g a q1 q2 g0 G r1 r2 N IX]%R_view.
  cbn [fr]. rewrite !get_index_above, !get_index_ixobj, IX by exact N. reflexivity.
Qed.
Lemma R_set_index n m s1 s2 x v : R n m s1 s2 ->
  (exists f1 f2, set_index x v (fr s1) = Ok f1 /\ set_index x v (fr s2) = Ok f2 /\ R n m (mkEst f1 (rg s1)) (mkEst f2 (rg s2))) \/
  (set_index x v (fr s1) = Panic site_core_set_index /\ set_index x v (fr s2) = Panic site_core_set_index).
Proof.
  intros [F g a q1 q2 g0 G r1 r2 N IX]%R_view.
  cbn [fr rg]. rewrite !set_index_above by exact N.
  pose proof (set_index_ixobj q1 x v) as H1. pose proof (set_index_ixobj q2 x v) as H2. rewrite IX in H1.
  destruct (ixobj q2) as [d|].
  - destruct H1 as (q1' & -> & I1), H2 as (q2' & -> & I2). left. eexists _, _. repeat split.
    apply R_intro; congruence.
  - rewrite H1, H2. right. split; reflexivity.
Qed.

(* G2 f: from R-related runtimes and the same sink, f gives the same outcome and sink and R-related runtimes *)
Definition res2 (n m : nat) (o1 o2 : out) : Prop :=
  match o1, o2 with (a, s1', k1), (b, s2', k2) => a = b /\ k1 = k2 /\ R n m s1' s2' end.
Definition G2 (f : est -> sink -> out) : Prop := forall n m s1 s2 k, R n m s1 s2 -> res2 n m (f s1 k) (f s2 k).
Lemma res2_same n m o s1 s2 k : R n m s1 s2 -> res2 n m (o, s1, k) (o, s2, k).
Proof. intro H. repeat split; auto. Qed.
Lemma res2_of_res {A n m} {r1 r2 : res A} {s1 s2 k f1 f2} : R n m s1 s2 -> r1 = r2 ->
  (forall a, res2 n m (f1 a) (f2 a)) -> res2 n m (of_res r1 s1 k f1) (of_res r2 s2 k f2).
Proof. intros H <- Hf. destruct r1; cbn [of_res]; [apply Hf|apply res2_same, H..]. Qed.
Lemma res2_bind n m n' m' (x1 x2 : out) (F1 F2 : ores -> est -> sink -> out) :
  res2 n' m' x1 x2 -> (forall o t1 t2 k, R n' m' t1 t2 -> res2 n m (F1 o t1 k) (F2 o t2 k)) ->
  res2 n m (match x1 with (o, t, k) => F1 o t k end) (match x2 with (o, t, k) => F2 o t k end).
Proof. destruct x1 as [[o1 t1] k1], x2 as [[o2 t2] k2]. intros (-> & -> & Ht) H. apply H, Ht. Qed.
Lemma res2_write_then n m s1 s2 k t (c1 c2 : sink -> out) : R n m s1 s2 -> (forall k1, res2 n m (c1 k1) (c2 k1)) ->
  res2 n m (match write_str s1 k t with (ODone, _, k1) => c1 k1 | o => o end)
           (match write_str s2 k t with (ODone, _, k1) => c2 k1 | o => o end).
Proof. intros H Hc. unfold write_str. destruct (write k (encode t)) as [k1 [|]]; [apply Hc|apply res2_same, H]. Qed.
Lemma res2_set_global n m s1 s2 k x v : R n m s1 s2 ->
  res2 n m (of_res (set_global x v (fr s1)) s1 k (fun f' => (ODone, mkEst f' (rg s1), k)))
           (of_res (set_global x v (fr s2)) s2 k (fun f' => (ODone, mkEst f' (rg s2), k))).
Proof. intro H. destruct (R_set_global _ _ _ _ x v H) as (f1 & f2 & -> & -> & H2). apply res2_same, H2. Qed.
Lemma res2_set_index n m s1 s2 k x v : R n m s1 s2 ->
  res2 n m (of_res (set_index x v (fr s1)) s1 k (fun f' => (ODone, mkEst f' (rg s1), k)))
           (of_res (set_index x v (fr s2)) s2 k (fun f' => (ODone, mkEst f' (rg s2), k))).
Proof. intro H. destruct (R_set_index _ _ _ _ x v H) as [(f1 & f2 & -> & -> & H2)|[-> ->]]; apply res2_same; assumption. Qed.

Lemma G2_write t : G2 (fun s k => write_str s k t).
Proof. intros n m s1 s2 k H. unfold write_str. destruct (write k (encode t)) as [k' ok]. apply res2_same, H. Qed.
Lemma G2_seq f cont : G2 f -> G2 cont -> G2 (fun s k => seq_step (f s k) cont).
Proof.
  intros Hf Hc n m s1 s2 k H. specialize (Hf n m s1 s2 k H).
  destruct (f s1 k) as [[o1 t1] k1]. destruct (f s2 k) as [[o2 t2] k2]. destruct Hf as (-> & -> & Ht).
  unfold seq_step. destruct o2; try (apply res2_same; exact Ht).
  rewrite (R_interrupted _ _ _ _ Ht). destruct (interrupted t2); [apply res2_same; exact Ht|apply Hc; exact Ht].
Qed.

Lemma G2_for body x len parent : G2 body -> forall vs i, G2 (for_loop body x len parent vs i).
Proof.
  intros Hb; induction vs as [|v vs IH]; intros i n m s1 s2 k H; [apply res2_same, H|]. rewrite !for_loop_cons.
  eapply res2_bind; [apply Hb, R_push_plain, H|]. intros o t1 t2 k' Ht%R_pop_plain.
  destruct (R_regs _ _ _ _ Ht) as [Eg Hs]. destruct o; try (apply res2_same, Ht).
  unfold clear_intr. rewrite Eg.
  destruct (r_intr (get_regs (pop_plain t2))) as [[|]|]; try (apply res2_same, Hs); apply IH, Hs.
Qed.
Lemma G2_tablerow body x len cols : G2 body -> forall vs i, G2 (tablerow_loop body x len cols vs i).
Proof.
  intros Hb; induction vs as [|v vs IH]; intros i n m s1 s2 k H; [apply res2_same, H|]. rewrite !tablerow_loop_cons.
  apply res2_write_then; [exact H|intro k1].
  eapply res2_bind; [apply Hb, R_push_plain, H|]. intros o t1 t2 k2 Ht%R_pop_plain.
  destruct o; try (apply res2_same, Ht). apply res2_write_then; [exact Ht|intro k3]. apply IH, Ht.
Qed.
Lemma G2_render_for body x len base : G2 body -> (forall s1 s2, agree s1 s2 -> base s1 = base s2) ->
  forall vs i, G2 (render_for_loop body x len base vs i).
Proof.
  intros Hb Hbase; induction vs as [|v vs IH]; intros i n m s1 s2 k H; [apply res2_same, H|]. rewrite !render_for_loop_cons.
  apply (res2_of_res H (Hbase _ _ (R_agree _ _ _ _ H))); intro b.
  eapply res2_bind; [apply Hb, R_push_sandbox, H|]. intros o t1 t2 k' Ht.
  destruct (R_regs _ _ _ _ Ht) as [Eg _]. apply R_pop_sandbox in Ht. destruct o; try (apply res2_same, Ht). rewrite Eg.
  destruct (match r_intr (get_regs t2) with Some Brk => true | _ => false end); [apply res2_same, Ht|apply IH, Ht].
Qed.

Section GAll.
Variable ps : pstore.
Variable rec : template -> est -> sink -> out.
Hypothesis rec_G2 : forall l, G2 (rec l).
Notation rn := (rnode O ps rec).
Notation rl := (rlist O ps rec).

Lemma G2_rlist_of l : Forall (fun n => G2 (rn n)) l -> G2 (rl l).
Proof.
  induction 1 as [|n l Hn _ IH]; [intros n m s1 s2 k H; apply res2_same; exact H|].
  exact (G2_seq (rn n) (rl l) Hn IH).
Qed.
Lemma G2_ropt o : optF (fun n => G2 (rn n)) o -> G2 (ropt_list O ps rec o).
Proof. destruct o as [l|]; simpl; intro H; [apply G2_rlist_of; exact H|intros n m s1 s2 k HR; apply res2_same; exact HR]. Qed.

Lemma case_any_G2 tv body (rest1 rest2 : out) n m s1 s2 k : R n m s1 s2 ->
  res2 n m rest1 rest2 -> G2 (rl body) -> forall l,
  res2 n m (when_any O ps rec tv body rest1 s1 k l) (when_any O ps rec tv body rest2 s2 k l).
Proof.
  intros H Hr Hb. induction l as [|a l IH]; [exact Hr|]. rewrite !when_any_cons.
  apply (res2_of_res H (eval_expr_agree _ _ (R_agree _ _ _ _ H) a)); intro av.
  destruct (value_eq av tv); [apply Hb; exact H|exact IH].
Qed.

Theorem G2_rnode : forall nd, G2 (rn nd).
Proof.
  (* in every case what is read agrees in the two runs (A), and each update of the runtime keeps R (the R_ and res2_ lemmas) *)
  (* the cases in the order of node_ind': text, raw, comment, output, assign, capture, increment, decrement, cycle,
     if, case, for, tablerow, break, continue, ifchanged, include, render *)
  induction nd using node_ind'; intros nn mm s1 s2 k HR; pose proof (R_agree _ _ _ _ HR) as A.
  - apply (G2_write s), HR.
  - apply (G2_write s), HR.
  - apply res2_same, HR.
  - cbn [rnode]. apply (res2_of_res HR (eval_chain_agree _ _ A fc)); intro v. apply G2_write, HR.
  - cbn [rnode]. apply (res2_of_res HR (eval_chain_agree _ _ A fc)); intro v. apply res2_set_global, HR.
  - rewrite !rnode_capture. eapply res2_bind; [apply (G2_rlist_of b H), HR|]. intros o t1 t2 kc Ht.
    destruct o; try (apply res2_same, Ht). destruct (decode (acc kc)); [apply res2_set_global, Ht|apply res2_same, Ht].
  - cbn [rnode]. rewrite (R_get_index _ _ _ _ x HR). apply res2_write_then; [exact HR|intro k1]. apply res2_set_index, HR.
  - cbn [rnode]. rewrite (R_get_index _ _ _ _ x HR). apply res2_write_then; [exact HR|intro k1]. apply res2_set_index, HR.
  - cbn [rnode]. destruct (R_regs _ _ _ _ HR) as [Eg Hs]. apply (res2_of_res HR (f_equal _ Eg)); intros [i g]. cbn [fst snd].
    specialize (Hs g). destruct (nth_error vs i) as [e|]; [|apply res2_same, Hs].
    apply (res2_of_res Hs (eval_expr_agree _ _ (R_agree _ _ _ _ Hs) e)); intro v. apply G2_write, Hs.
  - rewrite !rnode_if. apply (res2_of_res HR (eval_cond_agree _ _ A c)); intro b.
    destruct (Bool.eqb b m); [apply G2_rlist_of|apply G2_ropt]; assumption.
  - rewrite !rnode_case. apply (res2_of_res HR (eval_expr_agree _ _ A tg)); intro tv.
    induction ws as [|[args body] ws IHw]; [apply G2_ropt; assumption|].
    inversion H as [|? ? Hb Hr]; subst. rewrite !case_arms_cons.
    apply case_any_G2; [exact HR|apply IHw; assumption|apply G2_rlist_of; exact Hb].
  - rewrite !rnode_for. apply (res2_of_res HR (eval_range_agree _ _ A r)); intro arr.
    apply (res2_of_res HR (attr_usize_agree _ _ A l)); intro lim. apply (res2_of_res HR (attr_usize_agree _ _ A o)); intro off.
    rewrite (proj2 A). destruct (iter_array arr lim (match off with Some z => z | None => 0%Z end) rv); [apply G2_ropt; assumption|].
    apply G2_for; [apply G2_rlist_of; assumption|exact HR].
  - rewrite !(rnode_tablerow O ps rec). apply (res2_of_res HR (eval_range_agree _ _ A r)); intro arr.
    apply (res2_of_res HR (attr_usize_agree _ _ A c)); intro cs. apply (res2_of_res HR (attr_usize_agree _ _ A l)); intro lim.
    apply (res2_of_res HR (attr_usize_agree _ _ A o)); intro off.
    destruct cs as [[|p|p]|]; try (apply res2_same, HR); (apply G2_tablerow; [apply G2_rlist_of; assumption|exact HR]).
  - cbn [rnode]. destruct (R_regs _ _ _ _ HR) as [-> Hs]. apply res2_same, Hs.
  - cbn [rnode]. destruct (R_regs _ _ _ _ HR) as [-> Hs]. apply res2_same, Hs.
  - rewrite !(rnode_ifchanged O ps rec). eapply res2_bind; [apply (G2_rlist_of b H), HR|]. intros o t1 t2 kc Ht.
    destruct o; try (apply res2_same, Ht). destruct (decode (acc kc)) as [t|]; [|apply res2_same, Ht]. cbv zeta.
    destruct (R_regs _ _ _ _ Ht) as [-> Hs].
    destruct (match r_changed (get_regs t2) with Some l => negb (str_eqb l t) | None => true end); [apply (G2_write t), Hs|apply res2_same, Hs].
  - cbn [rnode]. apply (res2_of_res HR (eval_expr_agree _ _ A p)); intros []; try (apply res2_same, HR).
    apply (res2_of_res HR (eval_args_agree _ _ A a [])); intro ar. apply (res2_of_res HR eq_refl); intro body.
    eapply res2_bind; [apply rec_G2, R_push_plain, HR|]. intros o t1 t2 k' Ht%R_pop_plain. apply res2_same, Ht.
  - cbn [rnode]. apply (res2_of_res HR (eval_expr_agree _ _ A p)); intros []; try (apply res2_same, HR).
    destruct f as [[rng x]|].
    + apply (res2_of_res HR (eval_range_agree _ _ A rng)); intros [|v0 vs0]; [apply res2_same, HR|].
      apply (res2_of_res HR (eval_args_agree _ _ A a [])); intros _. apply (res2_of_res HR eq_refl); intro body.
      apply G2_render_for; [apply rec_G2|intros t1 t2 At; apply eval_args_agree, At|exact HR].
    + apply (res2_of_res HR (eval_args_agree _ _ A a [])); intro ar. apply (res2_of_res HR eq_refl); intro body.
      eapply res2_bind; [apply rec_G2, R_push_sandbox, HR|]. intros o t1 t2 k' Ht%R_pop_sandbox. apply res2_same, Ht.
Qed.
End GAll.
Theorem G2_render ps : forall d l, G2 (render O ps d l).
Proof.
  induction d as [|d IH]; intro l; [intros n m s1 s2 k H; apply res2_same; exact H|].
  cbn [render]. apply G2_rlist_of. apply Forall_forall. intros nd _. apply G2_rnode. exact IH.
Qed.
End NI.

Lemma R_fresh_sandbox a s1 s2 : ixobj (fr s1) = ixobj (fr s2) -> R 0 0 (push_sandbox a s1) (push_sandbox a s2).
Proof. intro IX. exact (R_intro [] [] a (fr s1) (fr s2) regs0 [] (rg s1) (rg s2) (Forall_nil _) IX). Qed.
Lemma R00_pop t1 t2 : R 0 0 t1 t2 -> ixobj (fr (pop_sandbox t1)) = ixobj (fr (pop_sandbox t2)).
Proof.
  intros H%R_view. inversion H as [F g a q1 q2 g0 G r1 r2 N IX L]. destruct F; [exact IX|discriminate].
Qed.
Lemma sandboxed_runs O ps d body a s1 s2 k : ixobj (fr s1) = ixobj (fr s2) ->
  match render O ps d body (push_sandbox a s1) k, render O ps d body (push_sandbox a s2) k with
  | (o1, t1, k1), (o2, t2, k2) =>
      o1 = o2 /\ k1 = k2 /\ get_regs t1 = get_regs t2 /\ ixobj (fr (pop_sandbox t1)) = ixobj (fr (pop_sandbox t2)) /\
      strict (fr s1) (fr (pop_sandbox t1)) /\ strict (fr s2) (fr (pop_sandbox t2))
  end.
Proof.
  intro IX. pose proof (G2_render O ps d body 0 0 _ _ k (R_fresh_sandbox a s1 s2 IX)) as H.
  pose proof (sandbox_isolates O ps d body a s1 k) as K1. pose proof (sandbox_isolates O ps d body a s2 k) as K2.
  destruct (render O ps d body (push_sandbox a s1) k) as [[o1 t1] k1], (render O ps d body (push_sandbox a s2) k) as [[o2 t2] k2].
  destruct H as (-> & -> & HR). repeat split; [apply (R_regs _ _ _ _ HR)|apply R00_pop, HR|apply K1|apply K2].
Qed.

Definition same_out (x y : out) : Prop := match x, y with (o1, _, k1), (o2, _, k2) => o1 = o2 /\ k1 = k2 end.
Lemma same_of_res {A} (r : res A) s1 s2 k f1 f2 :
  (forall a, same_out (f1 a) (f2 a)) -> same_out (of_res r s1 k f1) (of_res r s2 k f2).
Proof. intro H. destruct r; cbn [of_res]; [apply H|split; reflexivity..]. Qed.

Theorem render_noninterference O ps d p args s1 s2 k :
  eval_expr O p s1 = eval_expr O p s2 -> eval_args O args s1 [] = eval_args O args s2 [] ->
  ixobj (fr s1) = ixobj (fr s2) ->
  match rnode O ps (render O ps d) (NRender p None args) s1 k, rnode O ps (render O ps d) (NRender p None args) s2 k with
  | (o1, _, k1), (o2, _, k2) => o1 = o2 /\ k1 = k2
  end.
Proof.
  intros Ep Ea IX. cbn [rnode]. rewrite Ep, Ea. apply same_of_res; intros []; try (split; reflexivity).
  apply same_of_res; intro a. apply same_of_res; intro body.
  pose proof (sandboxed_runs O ps d body a s1 s2 k IX) as H.
  destruct (render O ps d body (push_sandbox a s1) k) as [[o1 t1] k1], (render O ps d body (push_sandbox a s2) k) as [[o2 t2] k2].
  destruct H as (-> & -> & _). split; reflexivity.
Qed.

(* The for-form renders every item in its own sandbox and evaluates its arguments again for every item, in the
   caller's runtime, which the partial may have changed through the shared counters.  Hence the hypothesis on base:
   the argument expressions cannot tell the two callers apart, at the start and after the partial has moved the counters. *)
Lemma render_for_ni_gen O ps d body x len base c1 c2 :
  (forall t1 t2, strict c1 (fr t1) -> strict c2 (fr t2) -> ixobj (fr t1) = ixobj (fr t2) -> base t1 = base t2) ->
  forall vs i s1 s2 k, strict c1 (fr s1) -> strict c2 (fr s2) -> ixobj (fr s1) = ixobj (fr s2) ->
  match render_for_loop (render O ps d body) x len base vs i s1 k, render_for_loop (render O ps d body) x len base vs i s2 k with
  | (o1, _, k1), (o2, _, k2) => o1 = o2 /\ k1 = k2
  end.
Proof.
  intros Hbase. induction vs as [|v vs IH]; intros i s1 s2 k S1 S2 IX; [split; reflexivity|]. rewrite !render_for_loop_cons.
  rewrite (Hbase s1 s2 S1 S2 IX). apply same_of_res; intro b.
  set (root := upsert x v (upsert k_forloop (forloop_obj i len None) b)).
  pose proof (sandboxed_runs O ps d body root s1 s2 k IX) as H.
  destruct (render O ps d body (push_sandbox root s1) k) as [[o1 t1] k1], (render O ps d body (push_sandbox root s2) k) as [[o2 t2] k2].
  destruct H as (-> & -> & Eg & IX' & K1 & K2). destruct o2; try (split; reflexivity). rewrite Eg.
  destruct (match r_intr (get_regs t2) with Some Brk => true | _ => false end); [split; reflexivity|].
  apply IH; [eapply strict_trans; eassumption..|exact IX'].
Qed.
Lemma render_for_node_ni O ps d p rng x args s1 s2 k :
  eval_expr O p s1 = eval_expr O p s2 -> eval_range O rng s1 = eval_range O rng s2 ->
  (forall t1 t2, strict (fr s1) (fr t1) -> strict (fr s2) (fr t2) -> ixobj (fr t1) = ixobj (fr t2) ->
     eval_args O args t1 [] = eval_args O args t2 []) ->
  ixobj (fr s1) = ixobj (fr s2) ->
  same_out (rnode O ps (render O ps d) (NRender p (Some (rng, x)) args) s1 k) (rnode O ps (render O ps d) (NRender p (Some (rng, x)) args) s2 k).
Proof.
  intros Ep Er Ea IX. cbn [rnode]. rewrite Ep, Er, (Ea s1 s2 (strict_refl _) (strict_refl _) IX).
  apply same_of_res; intros []; try (split; reflexivity).
  apply same_of_res; intros [|v0 vs0]; [split; reflexivity|]. apply same_of_res; intros _. apply same_of_res; intro body.
  apply (render_for_ni_gen O ps d body x _ (fun s' => eval_args O args s' []) (fr s1) (fr s2) Ea); auto using strict_refl.
Qed.
Theorem render_for_noninterference O ps d p rng x args s1 s2 k :
  eval_expr O p s1 = eval_expr O p s2 -> eval_range O rng s1 = eval_range O rng s2 -> (forall t1 t2, eval_args O args t1 [] = eval_args O args t2 []) ->
  ixobj (fr s1) = ixobj (fr s2) ->
  match rnode O ps (render O ps d) (NRender p (Some (rng, x)) args) s1 k, rnode O ps (render O ps d) (NRender p (Some (rng, x)) args) s2 k with
  | (o1, _, k1), (o2, _, k2) => o1 = o2 /\ k1 = k2
  end.
Proof. intros Ep Er Ea IX. apply render_for_node_ni; auto. Qed.
