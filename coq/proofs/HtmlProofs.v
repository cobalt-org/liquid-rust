(* C16, about model/Filters_html.v: the output of escape is safe and unescapes to the input; escape_once also
   keeps existing entities and is idempotent; url_encode emits unreserved characters and %XY only and
   url_decode inverts it; the output of strip_html holds no complete <...> tag. *)
From Coq Require Import ZifyBool. (* without it lia cannot read <=?, <?, =?, &&, ||: hex_digit_upper, lower_eqb and others fail *)
From LV Require Import Consts Filters_html BaseLemmas Utf8Proofs.

(* the specification's constants (from the property text), written independently of the source;
   only '&' is the model's own cAMP (model/Filters_html.v) *)
Definition cLT : char := 60%N. Definition cGT : char := 62%N. Definition cQUOT : char := 34%N. Definition cAPOS : char := 39%N.
Definition sLT : str := [108;116;59]%N.            (* "lt;"  *)
Definition sGT : str := [103;116;59]%N.            (* "gt;"  *)
Definition sAPOS : str := [35;51;57;59]%N.         (* "#39;" *)
Definition sQUOT : str := [113;117;111;116;59]%N.  (* "quot;" *)
Definition sAMP : str := [97;109;112;59]%N.        (* "amp;" *)

(* the tables generated from html.rs / url.rs are the ones the specification names *)
Lemma consts_match :
  html_prefixes = [sLT; sGT; sAPOS; sQUOT; sAMP] /\
  html_specials = [cLT; cGT; cAPOS; cQUOT; cAMP] /\
  html_escapes = [(cLT, cAMP :: sLT); (cGT, cAMP :: sGT); (cAPOS, cAMP :: sAPOS); (cQUOT, cAMP :: sQUOT)] /\
  html_amp_escaped = cAMP :: sAMP /\ html_amp_kept = [cAMP] /\
  url_base_set = k_NON_ALPHANUMERIC /\ url_set_edits = [(true, 45%N); (true, 46%N); (true, 95%N)] /\
  url_decode_replace = (43%N, [32%N]).
Proof. repeat split; reflexivity. Qed.

Definition special (c : char) : bool :=
  N.eqb c cLT || N.eqb c cGT || N.eqb c cAMP || N.eqb c cQUOT || N.eqb c cAPOS.

Definition nr_spec (t : str) : nat :=
  if prefixb sLT t then 3 else if prefixb sGT t then 3 else if prefixb sAPOS t then 4
  else if prefixb sQUOT t then 5 else if prefixb sAMP t then 4 else 0.
Lemma nr_escaped_spec t : nr_escaped t = nr_spec t.
Proof. reflexivity. Qed.

Variant cclass (c : char) : Prop :=
| C_lt : c = cLT -> cclass c
| C_gt : c = cGT -> cclass c
| C_apos : c = cAPOS -> cclass c
| C_quot : c = cQUOT -> cclass c
| C_amp : c = cAMP -> cclass c
| C_plain : special c = false -> memb_c c html_specials = false -> N.eqb c cAMP = false -> cclass c.
Lemma classify c : cclass c.
Proof.
  destruct (N.eqb_spec c cLT) as [E|N1]; [apply C_lt, E|]. destruct (N.eqb_spec c cGT) as [E|N2]; [apply C_gt, E|].
  destruct (N.eqb_spec c cAPOS) as [E|N3]; [apply C_apos, E|]. destruct (N.eqb_spec c cQUOT) as [E|N4]; [apply C_quot, E|].
  destruct (N.eqb_spec c cAMP) as [E|N5]; [apply C_amp, E|].
  apply N.eqb_neq in N1, N2, N3, N4, N5. apply C_plain; [unfold special|unfold memb_c; cbn [existsb html_specials]|exact N5].
  - rewrite N1, N2, N3, N4, N5. reflexivity.
  - unfold cLT, cGT, cAPOS, cQUOT, cAMP in *. rewrite N1, N2, N3, N4, N5. reflexivity.
Qed.

(* One step of the escape loop where it does not simply compute: on a character that is none of the
   five, and on '&' in escape_once, which looks ahead for an entity name. *)
Lemma esc_plain once c t : memb_c c html_specials = false -> esc once 0 (c :: t) = c :: esc once 0 t.
Proof. intro M. cbn [esc]. rewrite M. reflexivity. Qed.
Lemma esc_amp_once t : esc true 0 (cAMP :: t) =
  match nr_spec t with O => cAMP :: sAMP ++ esc true 0 t | S n => cAMP :: esc true (S n) t end.
Proof. cbn -[nr_escaped]. rewrite nr_escaped_spec. destruct (nr_spec t); reflexivity. Qed.

(* safety checker: no special character except '&' immediately followed by one of the five names *)
Fixpoint ok (skip : nat) (s : str) : bool :=
  match s with
  | [] => true
  | c :: t =>
      match skip with
      | S k => negb (special c) && ok k t
      | O => if N.eqb c cAMP then (match nr_spec t with O => false | S k => ok (S k) t end)
             else negb (special c) && ok 0 t
      end
  end.
Fixpoint unesc (drop : nat) (s : str) : str :=
  match s with
  | [] => []
  | c :: t =>
      match drop with
      | S k => unesc k t
      | O => if N.eqb c cAMP then
               if prefixb sLT t then cLT :: unesc 3 t
               else if prefixb sGT t then cGT :: unesc 3 t
               else if prefixb sAPOS t then cAPOS :: unesc 4 t
               else if prefixb sQUOT t then cQUOT :: unesc 5 t
               else if prefixb sAMP t then cAMP :: unesc 4 t
               else c :: unesc 0 t
             else c :: unesc 0 t
      end
  end.

Theorem unescape_escape : forall s, unesc 0 (escape_str s) = s.
Proof.
  unfold escape_str. induction s as [|c t IH]; [reflexivity|].
  destruct (classify c) as [->| ->| ->| ->| ->|S M A]; try (cbn; rewrite IH; reflexivity).
  rewrite esc_plain by exact M. cbn [unesc]. rewrite A, IH. reflexivity.
Qed.

Theorem escape_safe : forall s, ok 0 (escape_str s) = true.
Proof.
  unfold escape_str. induction s as [|c t IH]; [reflexivity|].
  destruct (classify c) as [->| ->| ->| ->| ->|S M A]; try (cbn; rewrite IH; reflexivity).
  rewrite esc_plain by exact M. cbn [ok]. rewrite A, S, IH. reflexivity.
Qed.

Lemma skip_prefix once p t : esc once (length p) (p ++ t) = p ++ esc once 0 t.
Proof. induction p as [|a p IH]; [reflexivity|]. simpl. f_equal. exact IH. Qed.
Lemma ok_prefix p : forallb (fun c => negb (special c)) p = true ->
  forall t, ok (length p) (p ++ t) = ok 0 t.
Proof.
  induction p as [|a p IH]; intros H t; simpl in *; [reflexivity|].
  apply andb_prop in H as [Ha H]. rewrite Ha. simpl. apply IH; assumption.
Qed.
Lemma prefixb_app p u : prefixb p (p ++ u) = true.
Proof. induction p; simpl; [reflexivity|]. rewrite N.eqb_refl; assumption. Qed.

Lemma first_prefix_some ps t n : first_prefix ps t = S n ->
  exists p, In p ps /\ t = p ++ skipn (length p) t /\ length p = S n.
Proof.
  induction ps as [|p ps IH]; simpl; [discriminate|]. destruct (prefixb p t) eqn:E.
  - intro L. exists p. auto using prefixb_split.
  - intro H. destruct (IH H) as (q & Hq & R). exists q. auto.
Qed.
Lemma names_table p : In p [sLT; sGT; sAPOS; sQUOT; sAMP] ->
  forallb (fun c => negb (special c)) p = true /\ forall u, nr_spec (p ++ u) = length p.
Proof. intros [<-|[<-|[<-|[<-|[<-|[]]]]]]; split; reflexivity. Qed.

Theorem escape_once_safe : forall s, ok 0 (escape_once_str s) = true.
Proof.
  unfold escape_once_str. intro s. remember (length s) as n eqn:Hn. revert s Hn.
  induction n as [n IHn] using lt_wf_ind. intros s Hn. destruct s as [|c t]; [reflexivity|].
  assert (IHt : ok 0 (esc true 0 t) = true) by (apply (IHn (length t)); simpl in Hn; [lia|reflexivity]).
  destruct (classify c) as [->| ->| ->| ->| ->|S M A]; try (cbn; rewrite IHt; reflexivity).
  - rewrite esc_amp_once. destruct (nr_spec t) as [|k] eqn:N; [cbn; rewrite IHt; reflexivity|].
    (* the entity p that follows is copied, and the rest of t is shorter *)
    destruct (first_prefix_some html_prefixes t k N) as (p & Hp & Et & Lp). destruct (names_table p Hp) as [Np Nr].
    (* skip_prefix and ok_prefix are stated at length p, the match on nr_spec reduces only at S k: hence Lp both ways *)
    cbn [ok]. rewrite N.eqb_refl, Et, <- Lp, (skip_prefix true p), Nr, Lp, <- Lp, (ok_prefix p Np).
    apply (IHn (length (skipn (length p) t))); [|reflexivity].
    simpl in Hn. rewrite skipn_length. lia.
  - rewrite esc_plain by exact M. cbn [ok]. rewrite A, S, IHt. reflexivity.
Qed.

(* on safe strings escape_once is the identity, hence idempotence *)
Lemma once_id_on_ok : forall t k, ok k t = true -> esc true k t = t.
Proof.
  induction t as [|c t IH]; intros [|k] H; try reflexivity.
  - destruct (classify c) as [->| ->| ->| ->| ->|S M A]; try discriminate.
    + rewrite esc_amp_once. cbn -[nr_spec] in H. destruct (nr_spec t); [discriminate|]. f_equal. apply IH, H.
    + rewrite esc_plain by exact M. cbn [ok] in H. rewrite A in H. apply andb_prop in H as [_ H]. f_equal. apply IH, H.
  - cbn [ok] in H. apply andb_prop in H as [_ H]. cbn [esc]. f_equal. apply IH, H.
Qed.
Theorem escape_once_idem : forall s, escape_once_str (escape_once_str s) = escape_once_str s.
Proof. intro s. unfold escape_once_str at 1. apply once_id_on_ok. apply escape_once_safe. Qed.

Theorem escape_once_keeps_entities : forall p u, In p [sLT; sGT; sAPOS; sQUOT; sAMP] ->
  escape_once_str (cAMP :: p ++ u) = cAMP :: p ++ escape_once_str u.
Proof.
  intros p u Hin. unfold escape_once_str. destruct (names_table p Hin) as [Hp Hn].
  rewrite esc_amp_once, Hn. destruct (length p) as [|n] eqn:L.
  - destruct p; [|discriminate]. simpl in Hin. intuition discriminate.
  - rewrite <- L, skip_prefix. reflexivity.
Qed.
(* without the entity test every '&' is escaped: escape is not idempotent, escape_once is *)
Example escape_vs_once :
  escape_str (cAMP :: sAMP) = cAMP :: sAMP ++ sAMP /\ escape_once_str (cAMP :: sAMP) = cAMP :: sAMP.
Proof. split; reflexivity. Qed.

Definition unreserved (b : N) : bool := is_alnum b || N.eqb b 45 || N.eqb b 46 || N.eqb b 95.
Lemma in_encode_set_spec b : in_encode_set b = (128 <=? b)%N || negb (unreserved b).
Proof.
  unfold in_encode_set, unreserved. destruct (128 <=? b)%N eqn:E; [reflexivity|].
  change (str_eqb url_base_set k_NON_ALPHANUMERIC) with true. cbn [url_set_edits fold_left fst snd negb orb].
  rewrite (N.eqb_sym 45 b), (N.eqb_sym 46 b), (N.eqb_sym 95 b).
  destruct (N.eqb_spec b 45) as [->|?]; [reflexivity|]. destruct (N.eqb_spec b 46) as [->|?]; [reflexivity|].
  destruct (N.eqb_spec b 95) as [->|?]; [reflexivity|]. destruct (is_alnum b); reflexivity.
Qed.

Definition is_upper_hex (c : char) : bool := ((48 <=? c) && (c <=? 57) || (65 <=? c) && (c <=? 70))%N.
Fixpoint pct_wf (s : str) : bool :=
  match s with
  | [] => true
  | c :: t =>
      if N.eqb c 37 then
        match t with
        | h :: l :: t' => is_upper_hex h && is_upper_hex l && pct_wf t'
        | _ => false
        end
      else unreserved c && pct_wf t
  end.
Lemma hex_digit_upper n : (n < 16)%N -> is_upper_hex (hex_digit n) = true.
Proof. intro H. unfold is_upper_hex, hex_digit. destruct (N.ltb_spec n 10); lia. Qed.
Lemma hex_val_digit n : (n < 16)%N -> hex_val (hex_digit n) = Some n.
Proof.
  intro H. unfold hex_val, hex_digit. destruct (N.ltb_spec n 10).
  - replace ((48 <=? 48 + n) && (48 + n <=? 57))%N with true by lia. f_equal. lia.
  - replace ((48 <=? 55 + n) && (55 + n <=? 57))%N with false by lia.
    replace ((65 <=? 55 + n) && (55 + n <=? 70))%N with true by lia. f_equal. lia.
Qed.
Lemma unreserved_not_pct b : unreserved b = true -> N.eqb b 37 = false.
Proof. unfold unreserved, is_alnum. intro H. destruct (N.eqb_spec b 37) as [->|?]; [discriminate|reflexivity]. Qed.

Lemma pct_byte_shape b : (b < 256)%N ->
  (exists h l, (h < 16 /\ l < 16 /\ b = h * 16 + l)%N /\ pct_byte b = [37%N; hex_digit h; hex_digit l]) \/
  (unreserved b = true /\ pct_byte b = [b]).
Proof.
  intro H. unfold pct_byte. rewrite in_encode_set_spec.
  destruct (N_div_mod_split b 16) as (h & l & -> & -> & E & L); [discriminate|].
  destruct ((128 <=? b)%N || negb (unreserved b)) eqn:S.
  - left. exists h, l. repeat split; [lia|assumption..].
  - right. apply orb_false_iff in S as [_ S]. apply negb_false_iff in S. split; [exact S|reflexivity].
Qed.

Lemma pct_wf_byte b r : (b < 256)%N -> pct_wf (pct_byte b ++ r) = pct_wf r.
Proof.
  intro H. destruct (pct_byte_shape b H) as [(h & l & (Hh & Hl & _) & ->)|[U ->]]; cbn [app pct_wf].
  - rewrite N.eqb_refl, !hex_digit_upper by assumption. reflexivity.
  - rewrite (unreserved_not_pct b U), U. reflexivity.
Qed.
Lemma pct_decode_byte b r : (b < 256)%N -> pct_decode (pct_byte b ++ r) = b :: pct_decode r.
Proof.
  intro H. destruct (pct_byte_shape b H) as [(h & l & (Hh & Hl & E) & ->)|[U ->]]; cbn [app pct_decode].
  - rewrite N.eqb_refl, !hex_val_digit, E by assumption. reflexivity.
  - rewrite (unreserved_not_pct b U). reflexivity.
Qed.

Lemma pct_wf_encode bs : Forall (fun b => (b < 256)%N) bs -> pct_wf (flat_map pct_byte bs) = true.
Proof. induction 1 as [|b bs Hb B IH]; [reflexivity|]. simpl flat_map. rewrite pct_wf_byte by assumption. exact IH. Qed.
Lemma pct_decode_encode bs : Forall (fun b => (b < 256)%N) bs -> pct_decode (flat_map pct_byte bs) = bs.
Proof. induction 1 as [|b bs Hb B IH]; [reflexivity|]. simpl flat_map. rewrite pct_decode_byte by assumption. f_equal; exact IH. Qed.

Theorem url_encode_alphabet s : forallb valid_char s = true -> pct_wf (url_encode_str s) = true.
Proof. intro V. apply pct_wf_encode, encode_bytes, V. Qed.

(* the output of url_encode is ASCII without '+': replacing '+' and re-encoding are identities on it *)
Definition plain_ascii (c : char) : bool := (c <? 128)%N && negb (N.eqb c 43).
Lemma pct_byte_plain b : (b < 256)%N -> forallb plain_ascii (pct_byte b) = true.
Proof.
  intro H. destruct (pct_byte_shape b H) as [(h & l & (Hh & Hl & _) & ->)|[U ->]]; cbn [forallb]; unfold plain_ascii.
  - unfold hex_digit. destruct (N.ltb_spec h 10), (N.ltb_spec l 10); lia.
  - unfold unreserved, is_alnum in U. lia.
Qed.
Lemma pct_plain_encode bs : Forall (fun b => (b < 256)%N) bs -> forallb plain_ascii (flat_map pct_byte bs) = true.
Proof.
  induction 1 as [|b bs Hb B IH]; [reflexivity|]. simpl flat_map. rewrite forallb_app, pct_byte_plain by assumption. exact IH.
Qed.
Lemma url_encode_plain s : forallb valid_char s = true -> forallb plain_ascii (url_encode_str s) = true.
Proof. intro V. apply pct_plain_encode, encode_bytes, V. Qed.
Lemma replace_absent c r e : ~ In c e -> replace_char c r e = e.
Proof.
  induction e as [|x e IH]; intro H; [reflexivity|]. cbn [replace_char flat_map].
  destruct (N.eqb_spec x c) as [->|_]; [destruct H; left; reflexivity|].
  cbn [app]. f_equal. apply IH. intro Hin. apply H. right. exact Hin.
Qed.
Lemma encode_plain e : forallb plain_ascii e = true -> encode e = e.
Proof.
  induction e as [|c e IH]; simpl; intro H; [reflexivity|]. apply andb_prop in H as [Hc He].
  unfold plain_ascii in Hc. unfold encode_char. destruct (N.ltb_spec c 128); [|simpl in Hc; discriminate].
  simpl. f_equal. auto.
Qed.

Theorem url_decode_encode s : forallb valid_char s = true -> url_decode_str (url_encode_str s) = Some s.
Proof.
  intro V. unfold url_decode_str. cbn [url_decode_replace fst snd].
  pose proof (url_encode_plain s V) as P.
  assert (A : ~ In 43%N (url_encode_str s)).
  { intro Hin. apply (proj1 (forallb_forall _ _) P) in Hin. discriminate Hin. (* plain_ascii 43 is false *) }
  rewrite (replace_absent _ _ _ A), (encode_plain _ P). unfold url_encode_str.
  rewrite pct_decode_encode by (apply encode_bytes; exact V). apply decode_encode; exact V.
Qed.

Theorem html_filter_total O f v : (exists r, html_filter O f v = Ok r) \/ (exists c, html_filter O f v = Err c).
Proof.
  destruct f, v; cbn [html_filter]; try (left; eexists; reflexivity);
    (destruct (url_decode_str _); [left|right]); eexists; reflexivity.
Qed.

(* '<' and '>', the characters cLT and cGT above *)
Definition cL : char := 60%N. Definition cG : char := 62%N.
Fixpoint no_tag (s : str) : bool :=
  match s with
  | [] => true
  | c :: t => (if N.eqb c cL then negb (memb_c cG t) else true) && no_tag t
  end.

(* case folding does not touch the characters below 'A', so a one-character pattern d below 'A'
   matches case-insensitively exactly where d stands *)
Lemma lower_eqb c d : (d < 65)%N -> N.eqb (lower d) (lower c) = N.eqb c d.
Proof.
  intro D. unfold lower. replace ((65 <=? d) && (d <=? 90))%N with false by lia.
  destruct (N.eqb_spec d 383); [lia|]. destruct (N.eqb_spec d 8490); [lia|].
  destruct ((65 <=? c) && (c <=? 90))%N eqn:E; [lia|].
  destruct (N.eqb_spec c 383) as [->|?]; [lia|]. destruct (N.eqb_spec c 8490) as [->|?]; lia.
Qed.
Lemma prefix_ci_single d c t : (d < 65)%N -> prefix_ci [d] (c :: t) = N.eqb c d.
Proof. intro D. cbn [prefix_ci]. unfold ci_eqb. rewrite lower_eqb, andb_true_r by exact D. reflexivity. Qed.
Lemma occurs_ci_single d t : (d < 65)%N -> occurs_ci [d] t = memb_c d t.
Proof.
  intro D. induction t as [|c t IH]; [reflexivity|]. cbn [occurs_ci]. rewrite prefix_ci_single, IH by exact D.
  unfold memb_c. cbn [existsb]. rewrite (N.eqb_sym d c). reflexivity.
Qed.

Lemma strip_subset op cl : forall s m x, In x (strip_between op cl m s) -> In x s
with strip_open_subset op cl : forall s n x, In x (strip_open op cl n s) -> In x s.
Proof.
  - induction s as [|c t IH]; intros m x H; [exact H|]. cbn [strip_between] in H.
    destruct m as [| |[|k]].
    + destruct (prefix_ci op (c :: t) && occurs_ci cl (skipn (length op) (c :: t))).
      * right. destruct (length op) as [|[|k]]; eauto.
      * destruct H as [->|H]; [left; reflexivity|right; eauto].
    + right. destruct (prefix_ci cl (c :: t)); eauto.
    + destruct H as [->|H]; [left; reflexivity|right; eauto].
    + right. eauto.
  - induction s as [|c t IH]; intros n x H; [exact H|]. cbn [strip_open] in H. right.
    destruct n as [|[|k]]; eauto.
Qed.

Lemma memb_c_in x s : memb_c x s = true <-> In x s.
Proof.
  unfold memb_c. rewrite existsb_exists. split; [intros (y & Hy & E); apply N.eqb_eq in E; subst; exact Hy|].
  intro H. exists x. split; [exact H|apply N.eqb_refl].
Qed.

Lemma last_pass_no_tag : forall s,
  no_tag (strip_between [cL] [cG] Normal s) = true /\ no_tag (strip_between [cL] [cG] Skipping s) = true.
Proof.
  induction s as [|c t [IHn IHs]]; [split; reflexivity|]. split.
  - cbn [strip_between length skipn]. rewrite prefix_ci_single, occurs_ci_single by reflexivity.
    destruct (N.eqb c cL && memb_c cG t) eqn:E; [exact IHs|].
    cbn [no_tag]. rewrite IHn, andb_true_r.
    destruct (N.eqb c cL); [|reflexivity]. cbn [andb] in E.
    (* no '>' in t, hence none in what the scanner keeps of t *)
    apply negb_true_iff, not_true_is_false. intro Hin. apply memb_c_in, strip_subset, memb_c_in in Hin. congruence.
  - cbn [strip_between length]. rewrite prefix_ci_single by reflexivity. destruct (N.eqb c cG); assumption.
Qed.
Theorem strip_html_no_tag s : no_tag (strip_html_str s) = true.
Proof. unfold strip_html_str. apply last_pass_no_tag. Qed.
Theorem no_tag_spec s : no_tag s = true -> forall a b, s = a ++ cL :: b -> ~ In cG b.
Proof.
  intros H a. revert s H. induction a as [|x a IH]; intros s H b E; subst s.
  - cbn [app no_tag] in H. rewrite N.eqb_refl in H. apply andb_prop in H as [H _]. apply negb_true_iff in H. intro Hin. apply memb_c_in in Hin. congruence.
  - cbn [app no_tag] in H. apply andb_prop in H as [_ H]. eapply IH; [exact H|reflexivity].
Qed.
