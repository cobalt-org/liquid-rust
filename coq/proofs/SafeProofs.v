(* SafeProofs.v — rendering never reaches a panic site (C02): for every well-formed template,
   every data object, every partial store and nesting depth the evaluator returns Done or a
   failure; the only panic sites it can reach are the ones listed in [allowed] (the unspecified
   sort of the known finding, and the two `String::from_utf8(..).expect` sites whose safety is the
   UTF-8 validity of what was written, see ValidProofs.v).  The invariant is an instance of the
   walk of EvalLogic.v. *)
From LV Require Import Eval StackProofs EvalInd EvalProofs EvalLogic ShapeProofs FindProofs HtmlProofs.

Definition allowed (n : N) : Prop := n = site_sort_unspecified \/ n = 303%N \/ n = 304%N.
(* values computed by expressions and filters can only hit the sort site; the two from_utf8 sites belong to blocks *)
Definition rsafe {A} (r : res A) : Prop := match r with Panic n => n = site_sort_unspecified | _ => True end.
Definition osafe (o : ores) : Prop := match o with OPanicked n => allowed n | _ => True end.
(* the runtime a render starts from has a global layer and a counter layer; no construct removes them *)
Definition okst (s : est) : Prop := wfr s /\ has_global (fr s) = true /\ has_index (fr s) = true.

Lemma okst_esim s s' : okst s -> esim s s' -> okst s'.
Proof.
  intros [W [G I]] E. split; [eapply wfr_esim; eassumption|].
  destruct E as [E _]. destruct (sim_has_global _ _ E) as [EG EI]. rewrite EG, EI. auto.
Qed.
Lemma okst_push_plain a s : okst s -> okst (push_plain a s).
Proof. intros [W [G I]]. repeat split; assumption. Qed.
Lemma okst_push_sandbox a s : okst s -> okst (push_sandbox a s).
Proof. intros [W [G I]]. repeat split; [apply wfr_push_sandbox|exact I]. Qed.
Lemma okst_build data : okst (est_build data).
Proof. repeat split. unfold wfr. cbn. discriminate. Qed.

Lemma set_global_safe x v r : has_global r = true -> exists r', set_global x v r = Ok r'.
Proof. intro H. destruct (set_kinds global_writes x v r H) as [r' [E _]]. eauto. Qed.
Lemma set_index_safe x v r : has_index r = true -> exists r', set_index x v r = Ok r'.
Proof. intro H. destruct (set_kinds index_writes x v r H) as [r' [E _]]. eauto. Qed.

Definition post (st : est) (x : out) : Prop := match x with (o, s', _) => esim st s' /\ osafe o end.
Definition SF (f : est -> sink -> out) : Prop := forall s k, okst s -> post s (f s k).

(* well-formed templates: what the parser guarantees (a cycle tag has at least one value) *)
Inductive OptForall (P : node -> Prop) : option (list node) -> Prop :=
| of_none : OptForall P None
| of_some l : Forall P l -> OptForall P (Some l).
Inductive nwf : node -> Prop :=
| wf_text s : nwf (NText s) | wf_raw s : nwf (NRaw s) | wf_comment : nwf NComment
| wf_out fc : nwf (NOutput fc) | wf_assign x fc : nwf (NAssign x fc)
| wf_capture x b : Forall nwf b -> nwf (NCapture x b)
| wf_inc x : nwf (NIncrement x) | wf_dec x : nwf (NDecrement x)
| wf_cycle n vs : vs <> [] -> nwf (NCycle n vs)
| wf_if m c t e : Forall nwf t -> OptForall nwf e -> nwf (NIf m c t e)
| wf_case tg ws e : Forall (fun w => Forall nwf (snd w)) ws -> OptForall nwf e -> nwf (NCase tg ws e)
| wf_for x r l o rv b e : Forall nwf b -> OptForall nwf e -> nwf (NFor x r l o rv b e)
| wf_table x r c l o b : Forall nwf b -> nwf (NTableRow x r c l o b)
| wf_break : nwf NBreak | wf_cont : nwf NContinue
| wf_ifch b : Forall nwf b -> nwf (NIfChanged b)
| wf_incl p a : nwf (NInclude p a)
| wf_render p f a : nwf (NRender p f a).
Definition twf (t : template) : Prop := Forall nwf t.

Section Safe.
Variable O : oracle.

Lemma eval_indices_np idx s : Forall (fun e => not_panic (eval_expr O e s) = true) idx -> not_panic (eval_indices O idx s) = true.
Proof.
  induction 1 as [|e t He _ IH]; [reflexivity|]. cbn [eval_indices].
  destruct (eval_expr O e s) as [v| | |]; try reflexivity; try discriminate.
  cbn [bind]. destruct v; try reflexivity. destruct (eval_indices O t s); try reflexivity; discriminate.
Qed.
Lemma eval_expr_np e s : not_panic (eval_expr O e s) = true.
Proof.
  induction e as [v|r idx IH] using expr_ind'; [reflexivity|]. rewrite eval_var_unfold.
  pose proof (eval_indices_np idx s IH) as Hi.
  destruct (eval_indices O idx s) as [p| | |]; try reflexivity; try discriminate. cbn [bind].
  apply (get_never_panics O).
Qed.
Lemma np_rsafe {A} (r : res A) : not_panic r = true -> rsafe r.
Proof. destruct r; try discriminate; intros _; exact I. Qed.
Lemma eval_expr_safe e s : rsafe (eval_expr O e s).
Proof. apply np_rsafe, eval_expr_np. Qed.

Lemma rsafe_bind {A B} (r : res A) (f : A -> res B) : rsafe r -> (forall a, rsafe (f a)) -> rsafe (do x <- r; f x).
Proof. intros Hr Hf. destruct r; cbn [bind]; auto. Qed.

Lemma eval_exprs_safe l s : rsafe (eval_exprs O l s).
Proof.
  induction l as [|e t IH]; [exact I|]. cbn [eval_exprs].
  apply rsafe_bind; [apply eval_expr_safe|]. intro v. apply rsafe_bind; [exact IH|]. intros; exact I.
Qed.

(* destruct the innermost scrutinee of the goal *)
Ltac dm := match goal with
  | |- context [match ?x with _ => _ end] =>
      lazymatch x with context [match _ with _ => _ end] => fail | _ => destruct x end
  end.
Lemma math_filter_np f v args : not_panic (math_filter O f v args) = true.
Proof.
  unfold math_filter, num2, as_scalar.
  destruct f; destruct args as [|a [|b args]]; try reflexivity; repeat (dm; try reflexivity).
Qed.
Lemma html_filter_np f v : not_panic (html_filter O f v) = true.
Proof. destruct (html_filter_total O f v) as [[r E]|[c E]]; rewrite E; reflexivity. Qed.
Lemma sort_by_safe {A} (cmp : A -> A -> comparison) l : rsafe (sort_by cmp l).
Proof. unfold sort_by. destruct (total_preorder_on cmp l); [exact I|reflexivity]. Qed.
Lemma arg_int_np v : not_panic (arg_int v) = true.
Proof. unfold arg_int. repeat (dm; try reflexivity). Qed.
Lemma opt_int_safe d a : rsafe (opt_int d a).
Proof. destruct a; [apply np_rsafe, arg_int_np|exact I]. Qed.

Lemma seq_filter_safe f v args : rsafe (seq_filter O f v args).
Proof.
  unfold seq_filter.
  destruct f; destruct args as [|a [|b [|c args]]]; try exact I;
    repeat first [exact I | apply sort_by_safe | apply opt_int_safe
                 | apply rsafe_bind; [first [apply sort_by_safe | apply opt_int_safe]|intro] | dm].
Qed.
Lemma apply_filter_safe f v args : rsafe (apply_filter O f v args).
Proof.
  destruct f; cbn [apply_filter].
  - apply np_rsafe, math_filter_np.
  - destruct args; [apply np_rsafe, html_filter_np|exact I].
  - apply seq_filter_safe.
  - (* the date filter: a value or an error, whatever the format *)
    unfold date_filter. destruct args as [|a [|b args']]; try exact I.
    destruct v; try exact I. destruct (to_date_time O s); try exact I.
    destruct (to_kstr O a); try exact I. destruct (Strftime.strftime d (c :: s0)); exact I.
  - (* the jekyll / shopify filters: list surgery and text concatenation *)
    unfold extra_filter. destruct f; destruct args as [|a [|b [|c args']]]; try exact I; destruct v; try exact I.
    + destruct l; exact I.
    + destruct l; exact I.
    + destruct (to_integer s); exact I.
Qed.
Lemma apply_filters_safe fs s : forall v, rsafe (apply_filters O v fs s).
Proof.
  induction fs as [|[f args] t IH]; intro v; [exact I|]. cbn [apply_filters].
  apply rsafe_bind; [apply eval_exprs_safe|]. intro a.
  apply rsafe_bind; [apply apply_filter_safe|]. intro r. apply IH.
Qed.
Lemma eval_chain_e_safe fc s : rsafe (eval_chain_e O fc s).
Proof. unfold eval_chain_e. apply rsafe_bind; [apply eval_expr_safe|]. intro v. apply apply_filters_safe. Qed.
Lemma eval_cond_safe c s : rsafe (eval_cond O c s).
Proof.
  induction c as [l o r|l|a IHa b IHb|a IHa b IHb]; cbn [eval_cond].
  - apply rsafe_bind; [apply eval_expr_safe|]. intro x. apply rsafe_bind; [apply eval_expr_safe|]. intro y.
    destruct o; cbn [eval_cmp]; try exact I. unfold contains_check. destruct x; exact I.
  - exact I.
  - apply rsafe_bind; [exact IHa|]. intros [|]; [exact IHb|exact I].
  - apply rsafe_bind; [exact IHa|]. intros [|]; [exact I|exact IHb].
Qed.
Lemma attr_usize_safe a s : rsafe (attr_usize O a s).
Proof.
  destruct a as [e|]; [|exact I]. cbn [attr_usize]. apply rsafe_bind; [apply eval_expr_safe|].
  intro v. destruct v; try exact I. destruct (to_integer s0); exact I.
Qed.
Lemma int_arg_safe e s : rsafe (int_arg O e s).
Proof.
  unfold int_arg. apply rsafe_bind; [apply eval_expr_safe|].
  intro v. destruct v; try exact I. destruct (to_integer s0); exact I.
Qed.
Lemma eval_range_safe r s : rsafe (eval_range O r s).
Proof.
  destruct r; cbn [eval_range].
  - apply rsafe_bind; [apply eval_expr_safe|]. intro v. destruct v; exact I.
  - apply rsafe_bind; [apply int_arg_safe|]. intro x. apply rsafe_bind; [apply int_arg_safe|]. intros; exact I.
Qed.
Lemma eval_args_safe args s : forall acc, rsafe (eval_args O args s acc).
Proof.
  induction args as [|[x e] t IH]; intro acc; [exact I|]. cbn [eval_args].
  destruct (try_eval_expr O e s); [apply IH|exact I].
Qed.
Lemma cycle_step_safe name max g : max <> 0 -> rsafe (cycle_step name max g).
Proof. destruct max; [congruence|intros _; exact I]. Qed.
End Safe.

Lemma SF_triple f : SF f <-> triple okst esim Any2 allowed f.
Proof.
  split; intros H s k W; specialize (H s k W); destruct (f s k) as [[o s'] k'];
    [destruct H as [E G]; exact (conj E (conj I G))|exact (conj (proj1 H) (proj2 (proj2 H)))].
Qed.
Lemma rd_of_rsafe {A} (Pan : N -> Prop) {r : res A} {Q : A -> Prop} :
  Pan site_sort_unspecified -> rsafe r -> (forall a, r = Ok a -> Q a) -> rd Pan r Q.
Proof. destruct r; cbn; auto. intros H -> _. exact H. Qed.
Lemma OptForall_optF P o : OptForall P o -> optF P o.
Proof. destruct 1; cbn; auto. Qed.
Lemma nwf_ok n : nwf n -> node_ok allowed Any Any Any Any Any nwf n.
Proof.
  destruct 1; cbn; repeat split; auto using OptForall_optF, Forall_Any.
  - contradiction.
  - eapply Forall_impl; [|eassumption]. intros w Hw. split; [apply Forall_Any|exact Hw].
  - destruct f as [[? ?]|]; repeat split.
Qed.

Section SAll.
Variable O : oracle. Variable ps : pstore.
Variable rec : template -> est -> sink -> out.
Hypothesis ps_ok : forall name, match ps name with Ok b => twf b | Panic _ => False | _ => True end.
Hypothesis rec_SF : forall l, twf l -> SF (rec l).

Lemma ps_rd name : rd allowed (ps name) (Forall nwf).
Proof. specialize (ps_ok name). destruct (ps name); cbn; auto. contradiction. Qed.

Theorem SF_rnode : forall n, nwf n -> SF (rnode O ps rec n).
Proof.
  intros n Hn. apply SF_triple.
  apply (triple_rnode O ps okst esim Any2 allowed Any Any Any Any Any Any Any nwf); unfold Any, Any2;
    eauto using nwf_ok, esim_refl, esim_trans, okst_esim, okst_push_plain, okst_push_sandbox, ps_rd;
    try solve [intros; apply (rd_of_rsafe allowed (or_introl eq_refl)); auto using eval_chain_e_safe, eval_expr_safe, eval_cond_safe, eval_range_safe, attr_usize_safe, eval_args_safe, Forall_triv].
  (* left: what the runtime's primitives do to [okst] and [esim], and the two hypotheses about outcomes *)
  - (* H_regs *) intros g s W. apply esim_set_regs, W.
  - (* H_global *) intros x v s [_ [G _]] _ _. destruct (set_global_safe x v (fr s) G) as [f' E]. rewrite E. apply (esim_global _ _ _ _ E).
  - (* H_index *) intros x z s [_ [_ I]] _. destruct (set_index_safe x (vz z) (fr s) I) as [f' E]. rewrite E. apply (esim_index _ _ _ _ E).
  - (* H_pop_plain *) intros a s s' _ _. apply esim_pop_plain.
  - (* H_pop_sandbox *) intros a s s' _ _. apply esim_pop_sandbox.
  - (* H_decode: the two from_utf8 sites are allowed here; ValidProofs shows they are not reached *)
    intros kc _. destruct (decode (acc kc)); [exact I|]. split; [right; left|right; right]; reflexivity.
  - (* rec_ok *) intros l Hl. apply SF_triple, rec_SF, Hl.
Qed.
End SAll.

Theorem render_safe O ps :
  (forall name, match ps name with Ok b => twf b | Panic _ => False | _ => True end) ->
  forall d l, twf l -> SF (render O ps d l).
Proof.
  intro Hps. induction d as [|d IH]; intros l Hl; [intros s k W; split; [apply esim_refl|exact I]|].
  cbn [render]. apply SF_triple, (triple_rlist O ps okst esim Any2 allowed); unfold Any2; eauto using esim_refl, esim_trans, okst_esim.
  eapply Forall_impl; [|exact Hl]. intros n Hn. apply SF_triple, SF_rnode; assumption.
Qed.

Theorem render_top_no_panic O ps depth t data k :
  (forall name, match ps name with Ok b => twf b | Panic _ => False | _ => True end) -> twf t ->
  match render_top O ps depth t data k with
  | (OPanicked n, _, _) => allowed n
  | _ => True
  end.
Proof.
  intros Hps Ht. unfold render_top.
  pose proof (render_safe O ps Hps (S depth) t Ht (est_build data) k (okst_build data)) as H.
  destruct (render O ps (S depth) t (est_build data) k) as [[o s'] k']. destruct H as [_ Ho]. destruct o; auto.
Qed.

(* partial stores given by a finite table of sources: what the correspondence check instantiates *)
Definition table_store (l : list (str * option template)) : pstore :=
  fun name => match lookup name l with
              | Some (Some b) => Ok b
              | Some None => Err EParse
              | None => Err EPartialMissing
              end.
Lemma table_store_ok l : Forall (fun p => match snd p with Some b => twf b | None => True end) l ->
  forall name, match table_store l name with Ok b => twf b | Panic _ => False | _ => True end.
Proof.
  intros H name. unfold table_store. induction H as [|[k o] l Hk _ IH]; cbn [lookup]; [exact I|].
  destruct (str_eqb name k); [|exact IH]. cbn [snd] in Hk. destruct o; [exact Hk|exact I].
Qed.
