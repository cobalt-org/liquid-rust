(* EvalLogic.v — one induction over the evaluator for every unary invariant of a render.

   A specification is given by what must hold of the runtime before ([Pre]), how the runtime and the
   sink after a construct relate to those before it ([Rs], [Rk]: preorders), at which sites a panic may
   occur ([Pan]), and what is known of the data that flows: of texts and names ([Sx]), values ([Vx]) and
   objects pushed as frames ([Ox]).  The hypotheses say that each primitive of the runtime (register
   and variable updates, pushing and popping frames, writing, reading) respects the specification;
   [triple_rnode] / [triple_render] conclude that every construct and every template does.
   The shape invariant (ShapeProofs), the preserved preorders of GenInv / IsoProofs, the absence of
   panics (SafeProofs) and the validity of everything written (ValidProofs) are instances.  The two
   relational walks (SinkProofs: bounded against unbounded sink; NonInterf: two runtimes) are not. *)
From LV Require Import Eval StackProofs EvalInd EvalProofs.

Lemma Forall_triv {A} (P : A -> Prop) l : (forall x, P x) -> Forall P l.
Proof. intro H. apply Forall_forall. auto. Qed.
Lemma Forall_iter_array (P : value -> Prop) l lim off rv : Forall P l -> Forall P (iter_array l lim off rv).
Proof. apply incl_Forall, iter_array_incl. Qed.

Definition Any {A} (_ : A) : Prop := True.
Definition Any2 {A} (_ _ : A) : Prop := True.
Lemma Forall_Any {A} (l : list A) : Forall Any l.
Proof. apply Forall_triv. exact (fun _ => I). Qed.

Section Logic.
Variable O : oracle.
Variable ps : pstore.
Variable Pre : est -> Prop.
Variable Rs : est -> est -> Prop.
Variable Rk : sink -> sink -> Prop.
Variable Pan : N -> Prop.
Variable Sx : str -> Prop.
Variable Vx : value -> Prop.
Variable Ox : obj -> Prop.
(* the pieces of syntax whose evaluation yields data that is stored or written *)
Variable Fx : fchain -> Prop.
Variable Ex : expr -> Prop.
Variable Gx : range -> Prop.
Variable Ax : list (str * expr) -> Prop.
Variable Nx : node -> Prop.

(* an outcome is allowed unless it is a panic at a site outside [Pan] *)
Definition Go (o : ores) : Prop := match o with OPanicked n => Pan n | _ => True end.
Definition meets (s : est) (k : sink) (x : out) : Prop :=
  match x with (o, s', k') => Rs s s' /\ Rk k k' /\ Go o end.
Definition triple (f : est -> sink -> out) : Prop := forall s k, Pre s -> meets s k (f s k).
(* what is asked of a reader: a value it returns satisfies Q, a panic is at an allowed site; errors are free *)
Definition rd {A} (r : res A) (Q : A -> Prop) : Prop :=
  match r with Ok a => Q a | Panic n => Pan n | _ => True end.
Definition popt (p : option value) : Prop := match p with Some v => Vx v | None => True end.

(* what [Nx] must grant about each construct: its pieces and, hereditarily, its sub-templates *)
Definition node_ok (n : node) : Prop :=
  match n with
  | NText t | NRaw t => Sx t
  | NComment | NBreak | NContinue => True
  | NOutput fc => Fx fc
  | NAssign x fc => Sx x /\ Fx fc
  | NCapture x b => Sx x /\ Forall Nx b
  | NIncrement x | NDecrement x => Sx x
  | NCycle _ vs => (vs = [] -> Pan site_cycle_rem_zero) /\ Forall Ex vs
  | NIf _ _ t e => Forall Nx t /\ optF Nx e
  | NCase tg ws e => Ex tg /\ Forall (fun w => Forall Ex (fst w) /\ Forall Nx (snd w)) ws /\ optF Nx e
  | NFor x r _ _ _ b e => Sx x /\ Gx r /\ Forall Nx b /\ optF Nx e
  | NTableRow x r _ _ _ b => Sx x /\ Gx r /\ Forall Nx b
  | NIfChanged b => Forall Nx b
  | NInclude p a => Ex p /\ Ax a
  | NRender p f a => Ex p /\ Ax a /\ match f with Some (r, x) => Gx r /\ Sx x | None => True end
  end.
Hypothesis Nx_ok : forall n, Nx n -> node_ok n.

(* the relations are preorders.  An invariant I of the runtime goes into [Pre] and, as I s -> I s', into [Rs]:
   that is what [Pre_Rs] asks *)
Hypothesis Rs_refl : forall s, Rs s s.
Hypothesis Rs_trans : forall a b c, Rs a b -> Rs b c -> Rs a c.
Hypothesis Rk_refl : forall k, Rk k k.
Hypothesis Rk_trans : forall a b c, Rk a b -> Rk b c -> Rk a c.
Hypothesis Pre_Rs : forall s s', Pre s -> Rs s s' -> Pre s'.

(* each primitive that changes the runtime or the sink respects them *)
Hypothesis H_regs : forall g s, Pre s -> Rs s (set_regs g s).
Hypothesis H_global : forall x v s, Pre s -> Sx x -> Vx v -> rd (set_global x v (fr s)) (fun f' => Rs s (mkEst f' (rg s))).
Hypothesis H_index : forall x z s, Pre s -> Sx x -> rd (set_index x (vz z) (fr s)) (fun f' => Rs s (mkEst f' (rg s))).
Hypothesis H_push_plain : forall a s, Pre s -> Ox a -> Pre (push_plain a s).
Hypothesis H_pop_plain : forall a s s', Pre s -> Ox a -> Rs (push_plain a s) s' -> Rs s (pop_plain s').
Hypothesis H_push_sandbox : forall a s, Pre s -> Ox a -> Pre (push_sandbox a s).
Hypothesis H_pop_sandbox : forall a s s', Pre s -> Ox a -> Rs (push_sandbox a s) s' -> Rs s (pop_sandbox s').
Hypothesis H_write : forall k t, Sx t -> Rk k (fst (write k (encode t))).
(* what a body wrote into a private buffer is text, or else the two from_utf8 sites are allowed *)
Hypothesis H_decode : forall kc, Rk sink0 kc ->
  match decode (acc kc) with Some t => Sx t | None => Pan 303%N /\ Pan 304%N end.

(* the data predicates hold of what the evaluator itself makes *)
Hypothesis Sx_show_Z : forall z, Sx (show_Z z).
Hypothesis Sx_render : forall v, Vx v -> Sx (Value.render O v).
Hypothesis Sx_tr : forall i len cols, Sx (tr_open i cols) /\ Sx (tr_close i len cols).
Hypothesis Sx_keys : Sx k_forloop /\ Sx k_tablerow.
Hypothesis Vx_str : forall t, Sx t -> Vx (VScalar (SStr t)).
Hypothesis Vx_forloop : forall i len parent, popt parent -> Vx (forloop_obj i len parent).
Hypothesis Vx_tablerow : forall i len col cols, Vx (tablerow_obj i len col cols).
Hypothesis Ox_nil : Ox [].
Hypothesis Ox_upsert : forall x v d, Sx x -> Vx v -> Ox d -> Ox (upsert x v d).

(* each reader, on syntax [Nx] vouches for and a runtime satisfying [Pre]; of conditions and loop attributes,
   which are only tested, nothing is asked but where they may panic *)
Hypothesis R_chain : forall fc s, Fx fc -> Pre s -> rd (eval_chain_e O fc s) Vx.
Hypothesis R_expr : forall e s, Ex e -> Pre s -> rd (eval_expr O e s) Vx.
Hypothesis R_cond : forall c s, rd (eval_cond O c s) (fun _ => True).
Hypothesis R_range : forall r s, Gx r -> Pre s -> rd (eval_range O r s) (Forall Vx).
Hypothesis R_attr : forall a s, rd (attr_usize O a s) (fun _ => True).
Hypothesis R_args : forall a s, Ax a -> Pre s -> rd (eval_args O a s []) Ox.
(* the enclosing loop's object is read as the variable `forloop` *)
Hypothesis Ex_parent : Ex (EVar (SStr k_forloop) []).
Hypothesis R_ps : forall name, rd (ps name) (Forall Nx).

Lemma R_parent s : Pre s -> popt (try_get O [SStr k_forloop] (fr s)).
Proof.
  intro W. destruct (try_get O [SStr k_forloop] (fr s)) as [v|] eqn:E; [|exact I].
  pose proof (R_expr _ s Ex_parent W) as H. cbn [eval_expr bind] in H.
  apply (get_try_get_agree O) in E. rewrite E in H. exact H.
Qed.
Lemma Go_done : Go ODone. Proof. exact I. Qed.
Lemma Go_fail c : Go (OFail c). Proof. exact I. Qed.
Lemma meets_ret s k o : Go o -> meets s k (o, s, k).
Proof. intro H. repeat split; auto. Qed.
Lemma meets_trans s k s1 k1 x : Rs s s1 -> Rk k k1 -> meets s1 k1 x -> meets s k x.
Proof. destruct x as [[o s2] k2]. intros E K (E2 & K2 & G). repeat split; eauto. Qed.
Lemma meets_of_res {A} (r : res A) Q s k f : rd r Q -> (forall a, Q a -> meets s k (f a)) -> meets s k (of_res r s k f).
Proof. destruct r; cbn [of_res rd]; intros H Hf; auto using meets_ret. Qed.
Lemma meets_write s k t : Sx t -> meets s k (write_str s k t).
Proof.
  intro H. pose proof (H_write k t H). destruct (write_str_cases s k t) as [E|E]; rewrite E; repeat split; auto.
Qed.
Lemma meets_write_then s k t (c : sink -> out) : Sx t -> (forall k1, Rk k k1 -> meets s k1 (c k1)) ->
  meets s k (match write_str s k t with (ODone, _, k1) => c k1 | o => o end).
Proof.
  intros H Hc. pose proof (H_write k t H) as K. destruct (write_str_cases s k t) as [E|E]; rewrite E.
  - eapply meets_trans; [apply Rs_refl|exact K|]. apply Hc, K.
  - repeat split; auto.
Qed.

Lemma triple_seq f cont : triple f -> triple cont -> triple (fun s k => seq_step (f s k) cont).
Proof.
  intros Hf Hc s k W. specialize (Hf s k W). destruct (f s k) as [[o s1] k1]. unfold seq_step.
  destruct o; try exact Hf. destruct (interrupted s1); [exact Hf|].
  destruct Hf as (E & K & _). eapply meets_trans; [exact E|exact K|]. apply Hc. eapply Pre_Rs; eassumption.
Qed.

Lemma Ox_loop_frame key fl x v : Sx key -> Vx fl -> Sx x -> Vx v -> Ox (loop_frame key fl x v).
Proof. intros. unfold loop_frame. apply Ox_upsert; auto. apply (Ox_upsert key fl []); auto. Qed.

Lemma meets_in_plain body a s k : triple body -> Pre s -> Ox a ->
  meets s k (match body (push_plain a s) k with (o, s', k') => (o, pop_plain s', k') end).
Proof.
  intros Hb W Oa. specialize (Hb _ k (H_push_plain _ _ W Oa)). destruct (body (push_plain a s) k) as [[o s1] k1].
  destruct Hb as (E & K & G). apply (H_pop_plain _ _ _ W Oa) in E. repeat split; assumption.
Qed.
Lemma meets_in_sandbox body a s k : triple body -> Pre s -> Ox a ->
  meets s k (match body (push_sandbox a s) k with (o, s', k') => (o, pop_sandbox s', k') end).
Proof.
  intros Hb W Oa. specialize (Hb _ k (H_push_sandbox _ _ W Oa)). destruct (body (push_sandbox a s) k) as [[o s1] k1].
  destruct Hb as (E & K & G). apply (H_pop_sandbox _ _ _ W Oa) in E. repeat split; assumption.
Qed.

Lemma triple_for body x len parent : triple body -> Sx x -> popt parent ->
  forall vs i s k, Forall Vx vs -> Pre s -> meets s k (for_loop body x len parent vs i s k).
Proof.
  intros Hb Hx Hp. induction vs as [|v vs IH]; intros i s k Hv W; [apply meets_ret, Go_done|].
  rewrite for_loop_cons. inversion Hv as [|? ? Hv1 Hvs]; subst.
  assert (Oa : Ox (iter_frame x len parent i v)) by (apply Ox_loop_frame; auto; apply Sx_keys).
  pose proof (meets_in_plain body _ s k Hb W Oa) as Hm.
  destruct (body (push_plain (iter_frame x len parent i v) s) k) as [[o s1] k1]. destruct Hm as (Eb & Kb & Gb).
  destruct o; try (repeat split; assumption).
  assert (E2 : Rs s (clear_intr (pop_plain s1))) by (eapply Rs_trans; [exact Eb|apply H_regs; eapply Pre_Rs; eassumption]).
  destruct (r_intr (get_regs (pop_plain s1))) as [[|]|]; try (repeat split; assumption);
    (eapply meets_trans; [exact E2|exact Kb|]; apply IH; [exact Hvs|eapply Pre_Rs; eassumption]).
Qed.

Lemma triple_tablerow body x len cols : triple body -> Sx x ->
  forall vs i s k, Forall Vx vs -> Pre s -> meets s k (tablerow_loop body x len cols vs i s k).
Proof.
  intros Hb Hx. induction vs as [|v vs IH]; intros i s k Hv W; [apply meets_ret, Go_done|].
  rewrite tablerow_loop_cons. inversion Hv as [|? ? Hv1 Hvs]; subst.
  apply meets_write_then; [apply (Sx_tr i len cols)|]. intros k1 K1.
  match goal with |- context [push_plain ?a s] => assert (Oa : Ox a) by (apply Ox_loop_frame; auto; apply Sx_keys);
    pose proof (meets_in_plain body a s k1 Hb W Oa) as Hm; destruct (body (push_plain a s) k1) as [[o s1] k2] end.
  destruct Hm as (Eb & Kb & Gb). destruct o; try (repeat split; assumption).
  eapply meets_trans; [exact Eb|exact Kb|]. pose proof (Pre_Rs _ _ W Eb) as W1.
  apply meets_write_then; [apply (Sx_tr i len cols)|]. intros k3 K3. apply IH; assumption.
Qed.

Lemma triple_render_for body x len base : triple body -> Sx x -> (forall s, Pre s -> rd (base s) Ox) ->
  forall vs i s k, Forall Vx vs -> Pre s -> meets s k (render_for_loop body x len base vs i s k).
Proof.
  intros Hb Hx Hbase. induction vs as [|v vs IH]; intros i s k Hv W; [apply meets_ret, Go_done|].
  rewrite render_for_loop_cons. inversion Hv as [|? ? Hv1 Hvs]; subst.
  eapply meets_of_res; [apply Hbase, W|]. intros b Ob. cbv beta.
  match goal with |- context [push_sandbox ?a s] =>
    assert (Oa : Ox a) by (apply Ox_upsert; auto; apply Ox_upsert; auto; [apply Sx_keys|apply Vx_forloop; exact I]);
    pose proof (meets_in_sandbox body a s k Hb W Oa) as Hm; destruct (body (push_sandbox a s) k) as [[o s1] k1] end.
  destruct Hm as (Eb & Kb & Gb). destruct o; try (repeat split; assumption).
  destruct (match r_intr (get_regs s1) with Some Brk => true | _ => false end); [repeat split; assumption|].
  eapply meets_trans; [exact Eb|exact Kb|]. apply IH; [exact Hvs|eapply Pre_Rs; eassumption].
Qed.

Section Nodes.
Variable rec : template -> est -> sink -> out.
Hypothesis rec_ok : forall l, Forall Nx l -> triple (rec l).
Notation rn := (rnode O ps rec).
Notation rl := (rlist O ps rec).

Lemma triple_rlist l : Forall (fun n => triple (rn n)) l -> triple (rl l).
Proof.
  induction 1 as [|n l Hn _ IH]; [intros s k _; apply meets_ret, Go_done|]. exact (triple_seq (rn n) (rl l) Hn IH).
Qed.

(* [T n] is what the induction over the syntax knows of a sub-construct n; blocks and optional blocks follow *)
Let T n := Nx n -> triple (rn n).
Lemma bodies l : Forall T l -> Forall Nx l -> triple (rl l).
Proof. intros H H'. apply triple_rlist. rewrite Forall_forall in *. intros n Hn. exact (H n Hn (H' n Hn)). Qed.
Lemma obodies o : optF T o -> optF Nx o -> triple (ropt_list O ps rec o).
Proof. destruct o as [l|]; cbn [optF]; intros H H'; [apply bodies; assumption|intros s k _; apply meets_ret, Go_done]. Qed.

(* the common shape of capture (site 303) and ifchanged (site 304): the body is rendered into a private
   buffer and its text handed to [c] *)
Lemma meets_private b s k (c : est -> str -> out) (site : BinNums.N) :
  triple (rl b) -> Pre s -> (site = 303%N \/ site = 304%N) ->
  (forall s1 t, Rs s s1 -> Sx t -> meets s1 k (c s1 t)) ->
  meets s k (match rl b s sink0 with
            | (ODone, s1, kc) => match decode (acc kc) with Some t => c s1 t | None => (OPanicked site, s1, k) end
            | (o, s1, _) => (o, s1, k)
            end).
Proof.
  intros Hb W Hsite Hc. specialize (Hb s sink0 W). destruct (rl b s sink0) as [[o s1] kc]. destruct Hb as (E & K & G).
  destruct o; try (repeat split; auto).
  pose proof (H_decode kc K) as D. destruct (decode (acc kc)) as [t|].
  - eapply meets_trans; [exact E|apply Rk_refl|]. apply Hc; assumption.
  - repeat split; auto. destruct Hsite; subst; apply D.
Qed.

Lemma meets_case_any tv body (rest : out) s k : Pre s -> meets s k rest -> triple (rl body) -> forall l, Forall Ex l ->
  meets s k (when_any O ps rec tv body rest s k l).
Proof.
  intros W Hr Hb. induction 1 as [|a l Ha _ IH]; [exact Hr|]. rewrite when_any_cons.
  eapply meets_of_res; [apply R_expr; assumption|]. intros av _. destruct (value_eq av tv); [apply Hb, W|exact IH].
Qed.

Lemma rd_lookup name : rd (match ps name with Ok b => Ok b | _ => ps (name ++ k_dot_liquid) end) (Forall Nx).
Proof. pose proof (R_ps name) as H. destruct (ps name); try apply R_ps. exact H. Qed.

Theorem triple_rnode : forall n, Nx n -> triple (rn n).
Proof.
  (* the cases in the order of node_ind': text, raw, comment, output, assign, capture, increment, decrement, cycle,
     if, case, for, tablerow, break, continue, ifchanged, include, render *)
  induction n using node_ind'; intros Hn st k W; pose proof (Nx_ok _ Hn) as Hok; cbn [node_ok] in Hok.
  - apply meets_write, Hok.
  - apply meets_write, Hok.
  - apply meets_ret, Go_done.
  - cbn [rnode]. eapply meets_of_res; [apply R_chain; assumption|]. intros v Hv. apply meets_write, Sx_render, Hv.
  - cbn [rnode]. destruct Hok as [Hx Hfc]. eapply meets_of_res; [apply R_chain; assumption|]. intros v Hv.
    eapply meets_of_res; [apply H_global; assumption|]. intros f' Hf. repeat split; auto.
  - rewrite rnode_capture. destruct Hok as [Hx Hb].
    apply (meets_private b st k (fun s1 t => of_res (set_global x (VScalar (SStr t)) (fr s1)) s1 k (fun f' => (ODone, mkEst f' (rg s1), k))) 303%N);
      [apply bodies; assumption|exact W|auto|].
    intros s1 t E Ht. eapply meets_of_res; [apply H_global; [eapply Pre_Rs; eassumption|exact Hx|apply Vx_str, Ht]|].
    intros f' Hf. repeat split; auto.
  - cbn [rnode]. apply meets_write_then; [apply Sx_show_Z|]. intros k1 _.
    eapply meets_of_res; [apply H_index; assumption|]. intros f' Hf. repeat split; auto.
  - cbn [rnode]. apply meets_write_then; [apply Sx_show_Z|]. intros k1 _.
    eapply meets_of_res; [apply H_index; assumption|]. intros f' Hf. repeat split; auto.
  - cbn [rnode]. destruct Hok as [Hne Hvs].
    apply (meets_of_res _ (fun _ => True)); [unfold cycle_step; destruct vs; [apply Hne; reflexivity|exact I]|].
    intros [i g] _. cbn [fst snd]. pose proof (H_regs g st W) as Hs. pose proof (Pre_Rs _ _ W Hs) as W1.
    eapply meets_trans; [exact Hs|apply Rk_refl|]. destruct (nth_error vs i) as [e|] eqn:En; [|apply meets_ret, Go_fail].
    eapply meets_of_res; [apply R_expr; [|exact W1]|]. { rewrite Forall_forall in Hvs. eapply Hvs, nth_error_In, En. }
    intros v Hv. apply meets_write, Sx_render, Hv.
  - rewrite rnode_if. destruct Hok as [Ht He]. eapply meets_of_res; [apply R_cond|]. intros b _.
    destruct (Bool.eqb b m); [apply bodies|apply obodies]; assumption.
  - rewrite rnode_case. destruct Hok as (Htg & Hws & He). eapply meets_of_res; [apply R_expr; assumption|]. intros tv _. clear Hn.
    induction ws as [|[args body] ws IHw]; [apply obodies; assumption|].
    inversion H as [|? ? Hb Hr]; inversion Hws as [|? ? [Ha Hnb] Hwr]; subst. cbn [fst snd] in *. rewrite case_arms_cons.
    apply meets_case_any; [exact W|apply IHw; assumption|apply bodies; assumption|exact Ha].
  - rewrite rnode_for. destruct Hok as (Hx & Hr & Hb & He).
    eapply meets_of_res; [apply R_range; assumption|]. intros arr Harr.
    eapply meets_of_res; [apply R_attr|]. intros lim _. eapply meets_of_res; [apply R_attr|]. intros off _. cbv zeta.
    pose proof (Forall_iter_array Vx arr lim (match off with Some z => z | None => 0%Z end) rv Harr) as Hsel.
    destruct (iter_array arr lim (match off with Some z => z | None => 0%Z end) rv) as [|v0 sel]; [apply obodies; assumption|].
    apply triple_for; auto using R_parent. apply bodies; assumption.
  - rewrite rnode_tablerow. destruct Hok as (Hx & Hr & Hb).
    eapply meets_of_res; [apply R_range; assumption|]. intros arr Harr.
    eapply meets_of_res; [apply R_attr|]. intros cs _. eapply meets_of_res; [apply R_attr|]. intros lim _.
    eapply meets_of_res; [apply R_attr|]. intros off _. cbv zeta.
    pose proof (Forall_iter_array Vx arr lim (match off with Some z => z | None => 0%Z end) false Harr) as Hsel.
    destruct cs as [[|p|p]|]; try (apply meets_ret, Go_fail); (apply triple_tablerow; auto; apply bodies; assumption).
  - cbn [rnode]. repeat split; auto.
  - cbn [rnode]. repeat split; auto.
  - rewrite rnode_ifchanged.
    apply (meets_private b st k (fun s1 t =>
        let g := get_regs s1 in
        let s2 := set_regs (mkRegs (r_intr g) (r_cycles g) (Some t)) s1 in
        if match r_changed g with Some l => negb (str_eqb l t) | None => true end then write_str s2 k t else (ODone, s2, k)) 304%N);
      [apply bodies; assumption|exact W|auto|].
    intros s1 t E Ht. cbv zeta. pose proof (Pre_Rs _ _ W E) as W1.
    match goal with |- context [set_regs ?g s1] => pose proof (H_regs g s1 W1) as Hs end.
    eapply meets_trans; [exact Hs|apply Rk_refl|].
    destruct (match r_changed (get_regs s1) with Some l => negb (str_eqb l t) | None => true end); [apply meets_write, Ht|apply meets_ret, Go_done].
  - cbn [rnode]. destruct Hok as [Hp Ha]. eapply meets_of_res; [apply R_expr; assumption|]. intros pv _.
    destruct pv; try (apply meets_ret, Go_fail).
    eapply meets_of_res; [apply R_args; assumption|]. intros ar Oa. eapply meets_of_res; [apply R_ps|]. intros body Hbody.
    apply meets_in_plain; auto.
  - cbn [rnode]. destruct Hok as (Hp & Ha & Hf). eapply meets_of_res; [apply R_expr; assumption|]. intros pv _.
    destruct pv; try (apply meets_ret, Go_fail). cbv zeta.
    destruct f as [[rng x]|].
    + destruct Hf as [Hr Hx]. eapply meets_of_res; [apply R_range; assumption|]. intros arr Harr.
      destruct arr as [|v0 vs0]; [apply meets_ret, Go_done|].
      eapply meets_of_res; [apply R_args; assumption|]. intros _ _. eapply meets_of_res; [apply rd_lookup|]. intros body Hbody.
      apply triple_render_for; auto.
    + eapply meets_of_res; [apply R_args; assumption|]. intros ar Oa. eapply meets_of_res; [apply rd_lookup|]. intros body Hbody.
      apply meets_in_sandbox; auto.
Qed.
End Nodes.

Theorem triple_render : forall d l, Forall Nx l -> triple (render O ps d l).
Proof.
  induction d as [|d IH]; intros l Hl; [intros s k _; apply meets_ret, Go_fail|].
  cbn [render]. apply triple_rlist. eapply Forall_impl; [|exact Hl]. intros n Hn. apply triple_rnode; assumption.
Qed.
End Logic.

(* The special case of a specification that speaks of the runtime only: a precondition that pushing a
   frame keeps, and a preorder that register updates, assignments, counter updates and popping the
   pushed frame respect, relate the runtime after any template to the runtime before it. *)
Section Runtime.
Variable O : oracle.
Variable ps : pstore.
Variable Pre : est -> Prop.
Variable Rs : est -> est -> Prop.
Hypothesis Rs_refl : forall s, Rs s s.
Hypothesis Rs_trans : forall a b c, Rs a b -> Rs b c -> Rs a c.
Hypothesis Pre_Rs : forall s s', Pre s -> Rs s s' -> Pre s'.
Hypothesis H_regs : forall g s, Pre s -> Rs s (set_regs g s).
Hypothesis H_global : forall x v s f', set_global x v (fr s) = Ok f' -> Rs s (mkEst f' (rg s)).
Hypothesis H_index : forall x v s f', set_index x v (fr s) = Ok f' -> Rs s (mkEst f' (rg s)).
Hypothesis H_push_plain : forall a s, Pre s -> Pre (push_plain a s).
Hypothesis H_pop_plain : forall a s s', Rs (push_plain a s) s' -> Rs s (pop_plain s').
Hypothesis H_push_sandbox : forall a s, Pre s -> Pre (push_sandbox a s).
Hypothesis H_pop_sandbox : forall a s s', Rs (push_sandbox a s) s' -> Rs s (pop_sandbox s').

Definition keeps (f : est -> sink -> out) : Prop :=
  forall s k, Pre s -> match f s k with (_, s', _) => Rs s s' end.

Lemma keeps_triple f : keeps f <-> triple Pre Rs Any2 Any f.
Proof.
  split; intros H s k W; specialize (H s k W); destruct (f s k) as [[o s'] k']; [destruct o; exact (conj H (conj I I))|apply H].
Qed.
Lemma rd_Any {A} (r : res A) (Q : A -> Prop) : (forall a, r = Ok a -> Q a) -> rd Any r Q.
Proof. destruct r; cbn; unfold Any; auto. Qed.

(* the smallest instance of [triple_rnode]: every predicate on sinks, panic sites, data and syntax is [Any], so
   of its hypotheses only those about [Pre] and [Rs] are left, in the order in which Section Logic states them *)
Theorem keeps_rnode rec : (forall l, keeps (rec l)) -> forall n, keeps (rnode O ps rec n).
Proof.
  intros Hrec n. apply keeps_triple.
  apply (triple_rnode O ps Pre Rs Any2 Any Any Any Any Any Any Any Any Any); unfold Any, Any2; auto;
    try (intros; apply rd_Any; eauto using Forall_triv).
  - (* Nx_ok: a specification that asks nothing of the syntax *)
    assert (G : forall o, optF (fun _ : node => True) o) by (intros [l|]; cbn; auto using Forall_triv).
    intros [] _; cbn; repeat split; auto using Forall_triv.
    match goal with |- match ?f with Some _ => _ | None => _ end => destruct f as [[? ?]|]; auto end.
  - (* H_pop_plain *) eauto.
  - (* H_pop_sandbox *) eauto.
  - (* H_decode *) intros kc _. destruct (decode (acc kc)); auto.
  - (* rec_ok *) intros l _. apply keeps_triple, Hrec.
Qed.
Theorem keeps_render d : forall l, keeps (render O ps d l).
Proof.
  induction d as [|d IH]; intro l; [intros s k _; apply Rs_refl|].
  cbn [render]. apply keeps_triple, (triple_rlist O ps Pre Rs Any2 Any); unfold Any, Any2; auto.
  apply Forall_forall. intros n _. apply keeps_triple, keeps_rnode, IH.
Qed.
End Runtime.
