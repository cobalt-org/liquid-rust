(* CondProofs.v — C06, the parser's side: what parse_condition builds: `or` of `and`s, both grouped to the left,
   so that `x or y and z` is `x or (y and z)`; its meaning as a truth table; it never runs out of fuel. *)
From LV Require Import CondParse.

(* the shape of a well-formed condition: atoms joined by `and` into groups, groups joined by `or` *)
Inductive atom := AEx (e : expr) | ABin (l : expr) (o : cmpop) (r : expr).
Definition cond_of_atom (a : atom) : cond := match a with AEx e => CExists e | ABin l o r => CBin l o r end.
Section Shape.
(* any tokens that read as the connectives / operators: their value reading does not matter in these positions *)
Variable and_t or_t : ctok.
Variable op_t : cmpop -> ctok.
Hypothesis and_cls : t_cls and_t = TAnd.
Hypothesis or_cls : t_cls or_t = TOr.
Hypothesis op_cls : forall o, t_cls (op_t o) = TOp o.
Definition pv (e : expr) : ctok := mkT (Some e) TPlain.

Definition toks_of_atom (a : atom) : list ctok :=
  match a with AEx e => [pv e] | ABin l o r => [pv l; op_t o; pv r] end.
Fixpoint toks_of_group (a : atom) (more : list atom) : list ctok :=
  match more with [] => toks_of_atom a | b :: more' => toks_of_atom a ++ and_t :: toks_of_group b more' end.
Definition cond_of_group (a : atom) (more : list atom) : cond :=
  fold_left (fun c b => CAnd c (cond_of_atom b)) more (cond_of_atom a).
Fixpoint toks_of_cond (g : atom * list atom) (more : list (atom * list atom)) : list ctok :=
  match more with
  | [] => toks_of_group (fst g) (snd g)
  | h :: more' => toks_of_group (fst g) (snd g) ++ or_t :: toks_of_cond h more'
  end.
Definition cond_of_cond (g : atom * list atom) (more : list (atom * list atom)) : cond :=
  fold_left (fun c h => COr c (cond_of_group (fst h) (snd h))) more (cond_of_group (fst g) (snd g)).

Definition not_op (l : list ctok) : Prop := match l with [] => True | t :: _ => match t_cls t with TOp _ => False | _ => True end end.
Definition not_and (l : list ctok) : Prop := match l with [] => True | t :: _ => match t_cls t with TOp _ | TAnd => False | _ => True end end.
Lemma not_and_not_op l : not_and l -> not_op l.
Proof. destruct l as [|t l]; [auto|]. simpl. destruct (t_cls t); auto. Qed.
Lemma and_not_op l : not_op (and_t :: l).
Proof. simpl. rewrite and_cls. exact I. Qed.
Lemma or_not_and l : not_and (or_t :: l).
Proof. simpl. rewrite or_cls. exact I. Qed.

Lemma parse_atom_ok a rest : not_op rest -> parse_atom (toks_of_atom a ++ rest) = Ok (cond_of_atom a, rest).
Proof.
  intro H. destruct a as [e|l o r]; cbn [toks_of_atom app parse_atom pv t_val t_cls cond_of_atom].
  - destruct rest as [|t rest]; [reflexivity|]. cbn in H. destruct (t_cls t); try contradiction; reflexivity.
  - rewrite op_cls. reflexivity.
Qed.
Lemma conj_loop_stop f lh rest : not_and rest -> conj_loop (S f) lh rest = Ok (lh, rest).
Proof. destruct rest as [|t r]; [reflexivity|]. simpl. destruct (t_cls t); try contradiction; reflexivity. Qed.
(* the loop standing before the `and` that precedes the atoms [b :: more] of a group *)
Lemma conj_loop_ok : forall more b lh fuel rest, not_and rest -> S (length (toks_of_group b more)) < fuel ->
  conj_loop fuel lh (and_t :: toks_of_group b more ++ rest) =
  Ok (fold_left (fun c b => CAnd c (cond_of_atom b)) more (CAnd lh (cond_of_atom b)), rest).
Proof.
  induction more as [|b' more IH]; intros b lh [|f] rest Hr Hf; try (simpl in Hf; lia);
    cbn [conj_loop toks_of_group fold_left]; rewrite and_cls.
  - rewrite parse_atom_ok by apply not_and_not_op, Hr. cbn [bind fst snd].
    destruct f; [lia|]. apply conj_loop_stop, Hr.
  - rewrite <- app_assoc, parse_atom_ok by apply and_not_op. cbn [bind fst snd].
    apply IH; [exact Hr|]. cbn [toks_of_group] in Hf. rewrite app_length in Hf. simpl in Hf. lia.
Qed.
Lemma parse_conj_ok a more fuel rest : not_and rest -> length (toks_of_group a more) < fuel ->
  parse_conj fuel (toks_of_group a more ++ rest) = Ok (cond_of_group a more, rest).
Proof.
  intros Hr Hf. unfold parse_conj, cond_of_group. destruct more as [|b more]; cbn [toks_of_group fold_left] in *.
  - rewrite parse_atom_ok by apply not_and_not_op, Hr. cbn [bind fst snd].
    destruct fuel; [lia|]. apply conj_loop_stop, Hr.
  - rewrite <- app_assoc, parse_atom_ok by apply and_not_op. cbn [bind fst snd].
    apply conj_loop_ok; [exact Hr|]. rewrite app_length in Hf. simpl in Hf. lia.
Qed.
(* the loop standing before the `or` that precedes the groups [h :: more] *)
Lemma disj_loop_ok : forall more h lh fuel, S (length (toks_of_cond h more)) < fuel ->
  disj_loop fuel lh (or_t :: toks_of_cond h more) =
  Ok (fold_left (fun c h => COr c (cond_of_group (fst h) (snd h))) more (COr lh (cond_of_group (fst h) (snd h)))).
Proof.
  induction more as [|h' more IH]; intros h lh [|f] Hf; try (simpl in Hf; lia);
    cbn [disj_loop toks_of_cond fold_left] in *; rewrite or_cls.
  - rewrite <- (app_nil_r (toks_of_group _ _)), parse_conj_ok by (exact I || lia). cbn [bind fst snd].
    destruct f; [lia|]. reflexivity.
  - rewrite app_length in Hf. simpl in Hf. rewrite parse_conj_ok by (apply or_not_and || lia). cbn [bind fst snd].
    apply IH. lia.
Qed.

Theorem parse_condition_groups g more : parse_condition (toks_of_cond g more) = Ok (cond_of_cond g more).
Proof.
  unfold parse_condition, cond_of_cond. destruct more as [|h more]; cbn [toks_of_cond fold_left].
  - rewrite <- (app_nil_r (toks_of_group _ _)) at 2. rewrite parse_conj_ok by (exact I || lia). reflexivity.
  - rewrite parse_conj_ok by (apply or_not_and || (rewrite app_length; lia)). cbn [bind fst snd].
    apply disj_loop_ok. rewrite app_length. simpl. lia.
Qed.
Corollary or_and_grouping x y z :
  parse_condition [pv x; or_t; pv y; and_t; pv z] = Ok (COr (CExists x) (CAnd (CExists y) (CExists z))).
Proof. exact (parse_condition_groups (AEx x, []) [(AEx y, [AEx z])]). Qed.
Corollary and_or_grouping x y z :
  parse_condition [pv x; and_t; pv y; or_t; pv z] = Ok (COr (CAnd (CExists x) (CExists y)) (CExists z)).
Proof. exact (parse_condition_groups (AEx x, [AEx y]) [(AEx z, [])]). Qed.
End Shape.

Section Meaning.
Variable O : oracle. Variable s : est.
Variable truth : atom -> bool.
(* [truth] need only be right about the atoms that occur: no table is right about all of them, since some
   atoms evaluate to an error (`nil contains nil`) *)
Definition agrees (a : atom) : Prop := eval_cond O (cond_of_atom a) s = Ok (truth a).
Lemma eval_and c d x y : eval_cond O c s = Ok x -> eval_cond O d s = Ok y -> eval_cond O (CAnd c d) s = Ok (x && y).
Proof. intros Hc Hd. cbn [eval_cond]. rewrite Hc. destruct x; [exact Hd|reflexivity]. Qed.
Lemma eval_or c d x y : eval_cond O c s = Ok x -> eval_cond O d s = Ok y -> eval_cond O (COr c d) s = Ok (x || y).
Proof. intros Hc Hd. cbn [eval_cond]. rewrite Hc. destruct x; [reflexivity|exact Hd]. Qed.

Lemma eval_group a more : agrees a -> Forall agrees more ->
  eval_cond O (cond_of_group a more) s = Ok (truth a && forallb truth more).
Proof.
  intros Ha Hm. revert Ha. unfold cond_of_group, agrees. generalize (cond_of_atom a) (truth a).
  induction Hm as [|x more Hx _ IH]; intros c b Hc; cbn [fold_left forallb]; [rewrite andb_true_r; exact Hc|].
  rewrite andb_assoc. apply IH, eval_and; [exact Hc|exact Hx].
Qed.
Definition group_agrees (h : atom * list atom) : Prop := agrees (fst h) /\ Forall agrees (snd h).
Theorem condition_meaning_on g more : Forall group_agrees (g :: more) ->
  eval_cond O (cond_of_cond g more) s = Ok (existsb (fun h => truth (fst h) && forallb truth (snd h)) (g :: more)).
Proof.
  intros [[Hg Hgs] Hm]%Forall_cons_iff. unfold cond_of_cond. cbn [existsb]. generalize (eval_group _ _ Hg Hgs).
  generalize (cond_of_group (fst g) (snd g)) (truth (fst g) && forallb truth (snd g)).
  induction Hm as [|x more [Hx Hxs] _ IH]; intros c b Hc; cbn [fold_left existsb]; [rewrite orb_false_r; exact Hc|].
  rewrite orb_assoc. apply IH, eval_or; [exact Hc|apply eval_group; assumption].
Qed.

Hypothesis atoms_evaluate : forall a, eval_cond O (cond_of_atom a) s = Ok (truth a).
Theorem condition_meaning g more :
  eval_cond O (cond_of_cond g more) s = Ok (existsb (fun h => truth (fst h) && forallb truth (snd h)) (g :: more)).
Proof.
  apply condition_meaning_on, Forall_forall. intros h _.
  split; [|apply Forall_forall; intros a _]; apply atoms_evaluate.
Qed.
End Meaning.

(* The parser is total: with the fuel it gives itself it never runs out, and the `unreachable!()` of
   the peeking iterator is never met.  Every stage either fails with an error or hands on a rest of
   fewer than [n] tokens. *)
Definition shorter {A} (n : nat) (r : res (A * list ctok)) : Prop :=
  match r with Ok (_, rest) => length rest < n | Err _ => True | _ => False end.
Lemma shorter_mono {A} n m (r : res (A * list ctok)) : n <= m -> shorter n r -> shorter m r.
Proof. destruct r as [[a rest]| | |]; simpl; auto. lia. Qed.
Lemma shorter_bind {A B} (Q : res B -> Prop) n (r : res (A * list ctok)) f :
  shorter n r -> (forall c, Q (Err c)) -> (forall a, length (snd a) < n -> Q (f a)) -> Q (bind r f).
Proof. destruct r as [[a rest]| | |]; simpl; auto; contradiction. Qed.

Lemma parse_atom_shorter l : shorter (length l) (parse_atom l).
Proof.
  destruct l as [|t [|t2 l2]]; cbn [parse_atom]; [exact I|destruct (t_val t); simpl; auto|].
  destruct (t_val t); [|exact I]. destruct (t_cls t2); simpl; try lia.
  destruct l2 as [|t3 l3]; [exact I|]. destruct (t_val t3); simpl; [lia|exact I].
Qed.
Lemma conj_loop_shorter : forall fuel lh l, length l < fuel -> shorter (S (length l)) (conj_loop fuel lh l).
Proof.
  induction fuel as [|f IH]; intros lh l Hf; [lia|]. cbn [conj_loop].
  destruct l as [|t r]; [simpl; lia|]. destruct (t_cls t); try (simpl; lia). simpl in Hf.
  apply (shorter_bind _ _ _ _ (parse_atom_shorter r)); [exact (fun _ => I)|]. intros a La.
  apply (shorter_mono (S (length (snd a)))); [simpl; lia|]. apply IH. lia.
Qed.
Lemma parse_conj_shorter fuel l : length l < fuel -> shorter (length l) (parse_conj fuel l).
Proof.
  intro Hf. apply (shorter_bind _ _ _ _ (parse_atom_shorter l)); [exact (fun _ => I)|]. intros a La.
  apply (shorter_mono (S (length (snd a)))); [lia|]. apply conj_loop_shorter. lia.
Qed.
Definition ends {A} (r : res A) : Prop := match r with Ok _ | Err _ => True | _ => False end.
Lemma disj_loop_ends : forall fuel lh l, length l < fuel -> ends (disj_loop fuel lh l).
Proof.
  induction fuel as [|f IH]; intros lh l Hf; [lia|]. cbn [disj_loop].
  destruct l as [|t r]; [exact I|]. destruct (t_cls t); try exact I. simpl in Hf.
  apply (shorter_bind _ _ _ _ (parse_conj_shorter f r ltac:(lia))); [exact (fun _ => I)|]. intros a La. apply IH. lia.
Qed.
Theorem parse_condition_total l : parse_condition l <> OutOfFuel /\ (forall n, parse_condition l <> Panic n).
Proof.
  assert (E : ends (parse_condition l)).
  { apply (shorter_bind _ _ _ _ (parse_conj_shorter (S (length l)) l ltac:(lia))); [exact (fun _ => I)|].
    intros a La. apply disj_loop_ends. lia. }
  destruct (parse_condition l); try contradiction; split; discriminate.
Qed.
